(* C04: the trampolined loop of src/eval.rs (eval_lambda), [tramp], computes what *)
(* ordinary recursion on the bounce marker, [nested], computes: by the            *)
(* hidden-frame simulation of Hidden.v.  Up to frame_inv: entries on top of a     *)
(* state (Top, pushed), a theory of its own that Frame.v (C03) uses as well.      *)
From TL Require Import Base.Base Model.Reader Model.Printer Model.Store Model.Eval.
From TL Require Import Proofs.EvalRel Proofs.Calls Proofs.Hidden.
Local Open Scope nat_scope.
Local Open Scope list_scope.

(* [s1] is [s2] with the entries [H] on top of its stacks *)
Definition Top (H : key -> list sx) (s1 s2 : st) : Prop :=
  same_rest s1 s2 /\
  forall k, has_global (sget s1 k) = has_global (sget s2 k) /\
            bitems (sget s1 k) = H k ++ bitems (sget s2 k).

(* equal up to the representation of the store (the PositiveMap trees may differ *)
(* in shape; a key absent from one, at empty_binding in the other)              *)
Definition equiv (s1 s2 : st) : Prop := Top (fun _ => []) s1 s2.

Lemma Top_refl s : Top (fun _ => []) s s.
Proof. split; [apply same_rest_refl|]. intros k. split; reflexivity. Qed.

Lemma Top_trans X Y a b c : Top X a b -> Top Y b c -> Top (fun k => X k ++ Y k) a c.
Proof.
  intros [Ra Ta] [Rb Tb]. split; [eapply same_rest_trans; eassumption|].
  intros k. destruct (Ta k) as [ga ia], (Tb k) as [gb ib].
  split; [congruence|]. rewrite ia, ib. apply app_assoc.
Qed.

Lemma Top_depth X a b k : Top X a b -> depth a k = List.length (X k) + depth b k.
Proof. intros [_ T]. unfold depth. rewrite (proj2 (T k)). apply app_length. Qed.

Lemma app_inv_length {A} (a a' b b' : list A) :
  List.length a = List.length a' -> a ++ b = a' ++ b' -> b = b'.
Proof.
  intros L E. apply (f_equal (skipn (List.length a))) in E.
  rewrite skipn_app_exact, L, skipn_app_exact in E. exact E.
Qed.

Lemma Top_cancel X X' Y a b c : (forall k, List.length (X k) = List.length (X' k)) ->
  Top X a b -> Top (fun k => X' k ++ Y k) a c -> Top Y b c.
Proof.
  intros L [Rb Tb] [Rc Tc]. split; [eapply same_rest_trans; [apply same_rest_sym|]; eassumption|].
  intros k. destruct (Tb k) as [gb ib], (Tc k) as [gc ic]. split; [congruence|].
  rewrite ib, <- app_assoc in ic. exact (app_inv_length _ _ _ _ (L k) ic).
Qed.

Lemma binding_eta (b : binding) hg l : has_global b = hg -> bitems b = l ->
  b = {| has_global := hg; bitems := l |}.
Proof. destruct b; simpl; intros; subst; reflexivity. Qed.

(* The relation of Hidden.v read from above: with [top] on top of [s0] in the *)
(* second world, entries buried at the height of [s0] lie directly under it.  *)
Lemma SR_Top hid hf top s1 s2 s0 :
  (forall k, hid k <> [] -> hf k = depth s0 k) -> Top top s2 s0 ->
  SR hid hf s1 s2 <-> Top (fun k => top k ++ hid k) s1 s0.
Proof.
  intros Hf [R T].
  assert (E : forall k, insl (hid k) (hf k) (bitems (sget s2 k)) = (top k ++ hid k) ++ bitems (sget s0 k)).
  { intros k. rewrite (proj2 (T k)), <- app_assoc. destruct (hid k) eqn:EH.
    - apply insl_nil.
    - rewrite (Hf k) by (rewrite EH; discriminate). apply insl_mid. }
  split; intros [R' S]; (split; [eauto using same_rest_trans, same_rest_sym|]); intros k.
  - rewrite (S k). split; [apply T|apply E].
  - destruct (S k) as [g i]. apply binding_eta; [rewrite g; symmetry; apply T|rewrite i; symmetry; apply E].
Qed.

Definition bindable (x : sx) : Prop := exists k, key_of x = Some k /\ is_constant x = false.

Lemma bindable_keys l : Forall bindable l -> Forall has_key l.
Proof. apply Forall_impl. intros x (k & E & _). congruence. Qed.

Lemma cnt_In l k : In k l <-> 1 <= cnt l k.
Proof. apply (count_occ_In Pos.eq_dec). Qed.

Definition single (k : key) (X : list sx) : key -> list sx :=
  fun k' => if Pos.eq_dec k k' then X else [].

(* what binding [syms] to [vs] puts on the stack of [k], the last bound on top *)
Fixpoint pushed (syms vs : list sx) (k : key) : list sx :=
  match syms, vs with
  | x :: syms', v :: vs' =>
      pushed syms' vs' k ++
      match key_of x with
      | Some k' => if Pos.eq_dec k' k then [v] else []
      | None => []
      end
  | _, _ => []
  end.

Lemma cnt_cons_single k l k' (v : sx) : cnt (k :: l) k' = List.length (single k [v] k') + cnt l k'.
Proof.
  unfold single. destruct (Pos.eq_dec k k') as [<-|N]; [apply cnt_cons_same|apply cnt_cons_other, N].
Qed.

Lemma pushed_length : forall syms vs k, List.length vs = List.length syms ->
  List.length (pushed syms vs k) = cnt (keys syms) k.
Proof.
  induction syms as [|x syms IH]; intros vs k Hl; destruct vs as [|v vs]; try discriminate; [reflexivity|].
  simpl in Hl. cbn [pushed]. rewrite app_length, IH by lia. unfold keys. cbn [flat_map].
  destruct (key_of x) as [k'|]; cbn [app]; [rewrite (cnt_cons_single k' _ k v); unfold single|]; simpl; lia.
Qed.

Lemma bind_all_top : forall syms vs done s, Forall bindable syms ->
  List.length vs = List.length syms ->
  exists s', bind_all syms vs done s = (Ok tt, s') /\ Top (pushed syms vs) s' s.
Proof.
  induction syms as [|x syms IH]; intros vs done s Hb Hl; destruct vs as [|v vs]; try discriminate.
  - exists s. split; [reflexivity|]. apply Top_refl.
  - inversion Hb as [|? ? (k & Ek & Ec) Hb']; subst. simpl in Hl.
    destruct (IH vs (done ++ [x]) (sput s k (b_set_scope (sget s k) v)) Hb' ltac:(lia)) as (s' & E & T).
    exists s'. split; [cbn [bind_all]; unfold catch, sym_set_scope, with_key; rewrite Ek, Ec; exact E|].
    cbn [pushed]. rewrite Ek. apply (Top_trans _ (single k [v]) _ _ _ T).
    split; [apply same_rest_sput|]. intros k0. unfold single. destruct (Pos.eq_dec k k0) as [<-|N].
    + rewrite sget_sput_same. split; reflexivity.
    + rewrite sget_sput_other by assumption. split; reflexivity.
Qed.

Lemma unbind_all_top : forall syms s, Forall has_key syms ->
  (forall k, cnt (keys syms) k <= depth s k) ->
  exists s' off, unbind_all syms s = (Ok tt, s') /\ Top off s s' /\
    forall k, List.length (off k) = cnt (keys syms) k.
Proof.
  induction syms as [|x syms IH]; intros s Hk Hd.
  - exists s, (fun _ => []). split; [reflexivity|]. split; [apply Top_refl|reflexivity].
  - inversion Hk as [|? ? Hx Hk']; subst.
    destruct (key_of x) as [kx|] eqn:Ex; [|congruence].
    rewrite (keys_cons x syms kx Ex) in *. pose proof (Hd kx) as Hdx. rewrite cnt_cons_same in Hdx. unfold depth in Hdx.
    destruct (bitems (sget s kx)) as [|y r] eqn:Eb; [simpl in Hdx; lia|].
    set (sa := sput s kx {| has_global := has_global (sget s kx); bitems := r |}).
    assert (T1 : Top (single kx [y]) s sa).
    { split; [apply same_rest_sym, same_rest_sput|]. intros k. unfold sa, single.
      destruct (Pos.eq_dec kx k) as [<-|N].
      - rewrite sget_sput_same, Eb. split; reflexivity.
      - rewrite sget_sput_other by assumption. split; reflexivity. }
    destruct (IH sa Hk') as (s' & off & E & T & L).
    { intros k. specialize (Hd k). rewrite (cnt_cons_single kx _ k y), (Top_depth _ _ _ k T1) in Hd. lia. }
    exists s', (fun k => single kx [y] k ++ off k).
    split; [cbn [unbind_all]; unfold bind, sym_unset, b_unset; rewrite Ex, Eb; exact E|].
    split; [exact (Top_trans _ _ _ _ _ T1 T)|].
    intros k. rewrite app_length, L, (cnt_cons_single kx _ k y). reflexivity.
Qed.

Lemma frame_inv {A} syms (m : M A) vs s r s' :
  Forall bindable syms -> List.length vs = List.length syms -> R0 m m ->
  frame syms m vs s = (r, s') -> r <> Fuel ->
  exists sa sb off, Top (pushed syms vs) sa s /\ m sa = (r, sb) /\
                  Top off sb s' /\ forall k, List.length (off k) = cnt (keys syms) k.
Proof.
  intros Hb Hl Rm E Hr. unfold frame, bind at 1 in E.
  destruct (bind_all_top syms vs [] s Hb Hl) as (sa & Eb & Ta). rewrite Eb in E.
  destruct (catch_inv _ _ _ _ _ E Hr) as (r1 & sb & Em & Hr1 & Eu).
  destruct (Rm _ _ _ Em Hr1) as (_ & I & _).
  destruct (unbind_all_top syms sb (bindable_keys _ Hb)) as (sc & off & Eu' & Tq & Lq).
  { (* [m] is balanced: it cannot leave fewer entries than the frame pushed *)
    intros k. destruct (I k) as [D _].
    rewrite (Top_depth _ _ _ k Ta), pushed_length in D by assumption. lia. }
  unfold bind in Eu. rewrite Eu' in Eu. inversion Eu; subst. exists sa, sb, off. auto.
Qed.

(* the ghost logs only grow: so a run quiet as a whole is quiet on each part (quietP_split) *)
Definition logs_le (s s' : st) : Prop :=
  forall k, cnt (glog s) k <= cnt (glog s') k /\ mc s k <= mc s' k.

Lemma logs_le_refl s : logs_le s s.
Proof. intros k. lia. Qed.

Lemma logs_le_run {A} (m : M A) s r s' : G m -> R0 m m -> m s = (r, s') -> r <> Fuel -> logs_le s s'.
Proof.
  intros Gm Rm E Hr k. destruct (Gm _ _ _ E Hr) as [new En]. destruct (Rm _ _ _ E Hr) as (_ & I & _).
  rewrite En, cnt_app. pose proof (I k). lia.
Qed.

Lemma zip_false_pure rec ps args : exists r, forall s, zip_args rec false ps args s = (r, s).
Proof.
  destruct (zip_pure ps (firstn (n_used ps (List.length args)) args)) eqn:E;
    eexists; intros s; rewrite zip_args_values_untouched, E; reflexivity.
Qed.

(* Hidden.v's hypothesis Htrk with nothing hidden and no symbol tracked *)
Definition nothing_hidden : forall k : key, @nil sx <> [] -> False :=
  fun k H => H eq_refl.

Section Tramp.
Variable F : fops.
Variable f : nat.
Variables (ps body : sx) (pl : list param).
Hypothesis Hpl : parse_params ps = Ok pl.
Hypothesis Hbind : Forall bindable (map p_sym pl).

Notation rec := (run F f).
Notation syms := (map p_sym pl).

(* the loop of the implementation: pop the frame, then start the next call *)
Fixpoint tramp (k : nat) (r0 : sx) : M sx :=
  match k with
  | O => lift Fuel
  | Datatypes.S k' =>
      if is_bounced r0 then
        a <- lift (cdr_of r0) ;;
        r' <- eval_function rec false ps body a ;;
        tramp k' r'
      else ret r0
  end.

(* ordinary recursion: the next call runs while the caller's frame is still bound *)
Fixpoint nested (k : nat) (r0 : sx) : M sx :=
  match k with
  | O => lift Fuel
  | Datatypes.S k' =>
      if is_bounced r0 then
        a <- lift (cdr_of r0) ;;
        pl' <- lift (parse_params ps) ;;
        '(vs, rest) <- zip_args rec false pl' (items a) ;;
        match rest with
        | _ :: _ => fail EType
        | [] =>
            _ <- bind_all (map p_sym pl') vs [] ;;
            catch (r <- eval_progn rec body ;; nested k' r)
                  (fun r => _ <- unbind_all (map p_sym pl') ;; lift r)
        end
      else ret r0
  end.

Notation body_m := (eval_progn rec body).

Lemma body_R0 : R0 body_m body_m.
Proof. exact (eval_progn_R rec rec (run_self F f) body). Qed.

Lemma body_R2 hk hf (trk : key -> Prop) : (forall k, hk k <> [] -> trk k) -> R2 hk hf trk body_m body_m.
Proof. intros Ht. exact (eval_progn_R2 hk hf trk rec rec (run_R2 hk hf trk Ht F f) body). Qed.

Lemma body_G : G body_m.
Proof. exact (proj1 (body_R2 _ (fun _ => 0) _ nothing_hidden)). Qed.

Lemma nested_R0 : forall k r0, R0 (nested k r0) (nested k r0).
Proof.
  induction k as [|k IH]; intros r0; cbn [nested]; [apply R0_lift, np_Fuel|].
  destruct (is_bounced r0); [|apply R0_ret]. apply R0_bind; [apply R0_lift, cdr_of_np|]. intros a.
  exact (enter_R rec rec (run_self F f) false ps _ _ a (R0_bind _ _ _ _ body_R0 IH)).
Qed.

Lemma nested_R2 hk hf (trk : key -> Prop) : (forall k, hk k <> [] -> trk k) ->
  forall k r0, R2 hk hf trk (nested k r0) (nested k r0).
Proof.
  intros Ht. induction k as [|k IH]; intros r0; cbn [nested]; [apply R2_lift|].
  destruct (is_bounced r0); [|apply R2_ret]. apply R2_bind; [apply R2_lift|]. intros a.
  exact (enter_R2 hk hf trk Ht rec rec (run_R2 hk hf trk Ht F f) false ps _ _ a
           (R2_bind _ _ _ _ _ _ _ (body_R2 hk hf trk Ht) IH)).
Qed.

Lemma nested_G k r0 : G (nested k r0).
Proof. exact (proj1 (nested_R2 _ (fun _ => 0) _ nothing_hidden k r0)). Qed.

Lemma bounced_shape r0 : is_bounced r0 = true -> exists a, r0 = Cons Bounce a.
Proof.
  destruct r0; try discriminate. destruct r0_1; try discriminate. intros _. eexists; reflexivity.
Qed.

(* Both stop at once with the same outcome, or each runs a frame on the same values: *)
(* the recursion with the remaining activations inside it, the loop with the        *)
(* remaining iterations after it.                                                    *)
Lemma iteration k r0 s r s' : nested (S k) r0 s = (r, s') ->
  (exists vs, List.length vs = List.length syms /\
     frame syms (bind body_m (nested k)) vs s = (r, s') /\
     forall s2, tramp (S k) r0 s2 = bind (frame syms body_m vs) (tramp k) s2) \/
  (s' = s /\ forall s2, tramp (S k) r0 s2 = (r, s2)).
Proof.
  intros E. destruct (is_bounced r0) eqn:Eb.
  2: { right. cbn [nested tramp] in *. rewrite Eb in *. inversion E. split; reflexivity. }
  destruct (bounced_shape _ Eb) as [a ->].
  change (enter rec false ps (bind body_m (nested k)) a s = (r, s')) in E.
  assert (Et : forall s2, tramp (S k) (Cons Bounce a) s2 = bind (enter rec false ps body_m a) (tramp k) s2)
    by reflexivity.
  destruct (zip_false_pure rec pl (items a)) as [z Hz].
  assert (Ez : forall m s, enter rec false ps m a s =
                           bind (lift z) (fun '(vs, rest) => match rest with
                                                             | _ :: _ => fail EType
                                                             | [] => frame syms m vs
                                                             end) s).
  { intros m s0. unfold enter, bind at 1, lift at 1. rewrite Hpl. unfold bind at 1. rewrite Hz. reflexivity. }
  rewrite Ez in E.
  destruct z as [[vs [|x rest]]|e|n|].
  1: { left. exists vs. split; [rewrite map_length; exact (zip_args_len _ _ _ _ _ _ _ _ (Hz s))|].
       split; [exact E|]. intros s2. rewrite Et. unfold bind at 1. rewrite Ez. reflexivity. }
  all: right; inversion E; split; [reflexivity|];
    intros s2; rewrite Et; unfold bind at 1; rewrite Ez; reflexivity.
Qed.

Definition pk : list key := keys syms.    (* the keys of the parameter symbols *)
(* no parameter symbol is given a global value or a macro definition by the run *)
Definition quietP (s s' : st) : Prop :=
  forall key, In key pk -> cnt (glog s') key = cnt (glog s) key /\ mc s' key = mc s key.
(* a parameter symbol that is unbound outside the call has no global marker *)
Definition cleanP (s : st) : Prop :=
  forall key, In key pk -> depth s key = 0 -> has_global (sget s key) = false.

Lemma quietP_same a a' c c' : same_rest a a' -> same_rest c c' -> quietP a c -> quietP a' c'.
Proof.
  intros Ra Rc Q key Hk. rewrite <- (same_rest_glog _ _ Ra), <- (same_rest_glog _ _ Rc),
    <- (same_rest_mc _ _ key Ra), <- (same_rest_mc _ _ key Rc). exact (Q key Hk).
Qed.

Lemma quietP_split a b c : logs_le a b -> logs_le b c -> quietP a c -> quietP a b /\ quietP b c.
Proof.
  intros Lab Lbc Q. split; intros key Hk; destruct (Q key Hk), (Lab key), (Lbc key); lia.
Qed.

(* One activation of the recursion against one iteration of the loop.  [hid] are *)
(* the entries of the pending callers, on top of the loop's [s2]; between push    *)
(* and pop the two are the worlds of Hidden.v, [hid] buried at the height of [s2] *)
(* under the frame.  The loop then takes its frame off, the recursion not yet:    *)
(* that frame, [off], joins the pending entries.                                  *)
Lemma frame_sim hid s1 s2 vs sa1 r1 sb1 :
  Top hid s1 s2 -> (forall key, hid key <> [] -> In key pk) -> cleanP s2 ->
  List.length vs = List.length syms ->
  Top (pushed syms vs) sa1 s1 -> body_m sa1 = (r1, sb1) -> r1 <> Fuel -> quietP sa1 sb1 ->
  exists off sc2, frame syms body_m vs s2 = (r1, sc2) /\
    (forall key, List.length (off key) = cnt pk key) /\
    Top (fun key => off key ++ hid key) sb1 sc2 /\ cleanP sc2.
Proof.
  intros HT HH HC Hl T1 Ebody Hr1 Qb.
  destruct (bind_all_top syms vs [] s2 Hbind Hl) as (sa2 & Eb2 & T2).
  set (hf := depth s2).
  assert (HSa : SR hid hf sa1 sa2).
  { apply (SR_Top hid hf (pushed syms vs) sa1 sa2 s2 (fun _ _ => eq_refl) T2).
    exact (Top_trans _ _ _ _ _ T1 HT). }
  assert (Da : forall key, depth sa2 key = cnt (keys syms) key + hf key).
  { intros key. rewrite (Top_depth _ _ _ key T2), pushed_length by assumption. reflexivity. }
  assert (Hwa : wf hf (fun key => In key (keys syms)) sa2).
  { intros key Hk. fold (depth sa2 key). rewrite Da, (proj1 (proj2 T2 key)).
    split; [apply cnt_In in Hk; lia|exact (HC key Hk)]. }
  destruct (proj2 (body_R2 hid hf _ HH) sa1 sa2 r1 sb1 HSa Hwa Ebody Hr1
              (fun key Hz => proj1 (Qb key (proj1 Hz))))
    as (sb2 & Ebody2 & HSb & Hwb & Db).
  destruct (unbind_all_top syms sb2 (bindable_keys _ Hbind)) as (sc2 & off & Eu2 & U2 & L2).
  { intros key. specialize (Db key). rewrite Da in Db. lia. }
  exists off, sc2. split; [|split; [exact L2|]].
  { unfold frame, bind, catch. rewrite Eb2, Ebody2. destruct r1; try congruence; rewrite Eu2; reflexivity. }
  (* the body is balanced on the parameter symbols: their stacks are back at the height of [s2] *)
  assert (Dc : forall key, In key (keys syms) -> depth sc2 key = hf key).
  { intros key Hk. destruct (body_R0 _ _ _ Ebody2 Hr1) as (_ & I & _).
    pose proof (quietP_same _ _ _ _ (proj1 HSa) (proj1 HSb) Qb key Hk) as [_ Em].
    pose proof (Inv_balanced sa2 sb2 key I Em) as B.
    pose proof (Top_depth _ _ _ key U2) as D. apply cnt_In in Hk.
    rewrite L2, B, Da in D by (rewrite Da; lia). lia. }
  split.
  - apply (SR_Top hid hf off sb1 sb2 sc2); [|exact U2|exact HSb].
    intros key Hne. symmetry. apply Dc, HH, Hne.
  - intros key Hk Hd0. rewrite <- (proj1 (proj2 U2 key)). apply (Hwb key Hk).
    rewrite <- Dc; assumption.
Qed.

Lemma sim : forall k r0 hid s1 s2 r s1',
  Top hid s1 s2 -> (forall key, hid key <> [] -> In key pk) -> cleanP s2 ->
  nested k r0 s1 = (r, s1') -> r <> Fuel -> quietP s1 s1' ->
  exists s2', tramp k r0 s2 = (r, s2') /\ Top hid s1' s2'.
Proof.
  induction k as [|k IH]; intros r0 hid s1 s2 r s1' HT HH HC HN Hr HQ; [inversion HN; congruence|].
  destruct (iteration k r0 s1 r s1' HN) as [(vs & Hl & Ef & Et)|(-> & Et)]; rewrite Et.
  2: { exists s2. split; [reflexivity|assumption]. }
  destruct (frame_inv syms _ vs s1 r s1' Hbind Hl (R0_bind _ _ _ _ body_R0 (nested_R0 k)) Ef Hr)
    as (sa1 & sc1 & off1 & T1 & Ec & U1 & L1).
  destruct (bind_inv _ _ _ _ _ Ec Hr) as (r1 & sb1 & Ebody & Hr1 & Ek).
  assert (Ln : logs_le sb1 sc1).
  { destruct r1 as [v|e|n|]; try (inversion Ek; apply logs_le_refl).
    exact (logs_le_run _ _ _ _ (nested_G k v) (nested_R0 k v) Ek Hr). }
  destruct (quietP_split sa1 sb1 sc1 (logs_le_run _ _ _ _ body_G body_R0 Ebody Hr1) Ln
              (quietP_same _ _ _ _ (same_rest_sym _ _ (proj1 T1)) (same_rest_sym _ _ (proj1 U1)) HQ))
    as [Qb Qn].
  destruct (frame_sim hid s1 s2 vs sa1 r1 sb1 HT HH HC Hl T1 Ebody Hr1 Qb) as (off & sc2 & EF & L2 & TQ & HC').
  unfold bind at 1. rewrite EF. set (hid' := fun key => off key ++ hid key) in *.
  assert (HH' : forall key, hid' key <> [] -> In key pk).
  { intros key Hne. unfold hid' in Hne. destruct (off key) eqn:EQ; [exact (HH key Hne)|].
    apply cnt_In. rewrite <- L2, EQ. simpl. lia. }
  assert (exists s2', bind (lift r1) (tramp k) sc2 = (r, s2') /\ Top hid' sc1 s2') as (s2' & Et' & TT).
  { destruct r1 as [v|e|n|]; [exact (IH v hid' sb1 sc2 r sc1 TQ HH' HC' Ek Hr Qn)| | |congruence].
    all: inversion Ek; subst; exists sc2; split; [reflexivity|exact TQ]. }
  (* the recursion takes its frame off, which is as high as the one the loop took off *)
  exists s2'. split; [exact Et'|].
  apply (Top_cancel off1 off hid sc1 s1' s2'); [intros key; rewrite L1, L2; reflexivity|exact U1|exact TT].
Qed.

Lemma tramp_run_R0 : forall k r0, R0 (tramp k r0) (run F (f + k) (TTramp ps body r0)).
Proof.
  induction k as [|k IH]; intros r0; [intros s r s' E Hr; inversion E; congruence|].
  rewrite Nat.add_succ_r, run_S. cbn [step tramp]. destruct (is_bounced r0); [|apply R0_ret].
  apply R0_bind; [apply R0_lift, cdr_of_np|]. intros a.
  apply R0_bind; [|exact IH]. apply eval_function_R, run_RT_le. lia.
Qed.

Lemma tramp_run : forall k r0 s r s',
  tramp k r0 s = (r, s') -> r <> Fuel -> run F (f + k) (TTramp ps body r0) s = (r, s').
Proof. intros k r0 s r s' E Hr. exact (proj1 (tramp_run_R0 k r0 s r s' E Hr)). Qed.

(* C04: ordinary recursion and the trampolined loop give the same outcome and   *)
(* leave the same bindings, for every body and every number of bounces.         *)
Theorem nested_is_tramp k r0 s r s1' :
  nested k r0 s = (r, s1') -> r <> Fuel -> quietP s s1' -> cleanP s ->
  exists s2', run F (f + k) (TTramp ps body r0) s = (r, s2') /\ equiv s1' s2'.
Proof.
  intros HN Hr HQ HC.
  destruct (sim k r0 (fun _ => []) s s r s1' (Top_refl s) ltac:(intros key Hk; congruence) HC HN Hr HQ)
    as (s2' & Et & TT).
  exists s2'. split; [apply tramp_run; assumption|exact TT].
Qed.

End Tramp.

Theorem equiv_indistinguishable F g t s1 s2 r s1' :
  equiv s1 s2 -> run F g t s1 = (r, s1') -> r <> Fuel ->
  exists s2', run F g t s2 = (r, s2') /\ equiv s1' s2'.
Proof.
  intros E H Hr.
  assert (S0 : forall a b, SR (fun _ => []) (fun _ => 0) a b <-> equiv a b)
    by (intros a b; apply (SR_Top _ _ (fun _ => []) a b b); [congruence|apply Top_refl]).
  destruct (proj2 (run_R2 (fun _ => []) (fun _ => 0) (fun _ => False) nothing_hidden F g t) s1 s2 r s1')
    as (s2' & E' & HS' & _ & _); try assumption.
  - apply S0, E.
  - intros k [].
  - intros k [[] _].
  - exists s2'. split; [exact E'|apply S0, HS'].
Qed.
