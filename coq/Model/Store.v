(* SymbolBindings (src/value.rs) and the interpreter state.               *)
From TL Require Import Base.Base Model.Reader.

Record binding := { has_global : bool; bitems : list sx (* innermost first *) }.

Definition empty_binding := {| has_global := false; bitems := [] |}.

Definition b_set (b : binding) (v : sx) : binding :=
  match bitems b with
  | [] => {| has_global := true; bitems := [v] |}
  | _ :: r => {| has_global := has_global b; bitems := v :: r |}
  end.

Fixpoint replace_last (l : list sx) (v : sx) : list sx :=
  match l with
  | [] => [v]
  | [_] => [v]
  | x :: r => x :: replace_last r v
  end.

Definition b_set_global (b : binding) (v : sx) : binding :=
  {| has_global := true; bitems := replace_last (bitems b) v |}.

Definition b_set_scope (b : binding) (v : sx) : binding :=
  {| has_global := has_global b; bitems := v :: bitems b |}.

Definition b_unset (b : binding) : option binding :=
  match bitems b with
  | [] => None
  | _ :: r => Some {| has_global := has_global b; bitems := r |}
  end.

Definition b_lex_bound (b : binding) : bool :=
  if has_global b then Nat.ltb 1 (List.length (bitems b))
  else negb (Nat.eqb (List.length (bitems b)) 0).

Record st := {
  store : PositiveMap.t binding;
  next_id : positive;
  log : list (Z * text);            (* tick log, most recent first *)
  steps : N;
  fail_at : option N;
  htabs : PositiveMap.t (list (sx * sx));
  flags : rflags;
  files : list (text * text);       (* virtual file system *)
  nfiles : N;                       (* filenames.len() *)
  mlog : list key;                  (* ghost: keys pushed by executed defmacro forms;
                                       never read by the evaluator, only by the theorems *)
  glog : list key                   (* ghost: keys whose global slot was written by defun *)
}.

Definition sget (s : st) (k : key) : binding :=
  match PositiveMap.find k (store s) with Some b => b | None => empty_binding end.

Definition sput (s : st) (k : key) (b : binding) : st :=
  {| store := PositiveMap.add k b (store s); next_id := next_id s; log := log s;
     steps := steps s; fail_at := fail_at s; htabs := htabs s; flags := flags s;
     files := files s; nfiles := nfiles s; mlog := mlog s; glog := glog s |}.

Lemma sget_sput_same s k b : sget (sput s k b) k = b.
Proof. unfold sget, sput; simpl. rewrite PositiveMap.gss. reflexivity. Qed.

Lemma sget_sput_other s k k' b : k <> k' -> sget (sput s k b) k' = sget s k'.
Proof. intros H. unfold sget, sput; simpl. rewrite PositiveMap.gso; auto. Qed.

Definition depth (s : st) (k : key) : nat := List.length (bitems (sget s k)).

(* state monad with outcomes *)
Definition M (A : Type) := st -> res A * st.
Definition ret {A} (a : A) : M A := fun s => (Ok a, s).
Definition fail {A} (e : ekind) : M A := fun s => (Err e, s).
Definition panic {A} (site : N) : M A := fun s => (Panic site, s).
Definition bind {A B} (m : M A) (f : A -> M B) : M B :=
  fun s => match m s with
           | (Ok a, s') => f a s'
           | (Err e, s') => (Err e, s')
           | (Panic n, s') => (Panic n, s')
           | (Fuel, s') => (Fuel, s')
           end.
Notation "x <- m ;; f" := (bind m (fun x => f))
  (at level 61, m at next level, right associativity).
Notation "' pat <- m ;; f" := (bind m (fun x => match x with pat => f end))
  (at level 61, pat pattern, m at next level, right associativity).

Definition lift {A} (r : res A) : M A := fun s => (r, s).

(* run [m]; whatever its outcome, continue with [k] on that outcome *)
(* [Fuel] is not an outcome of tulisp but the model giving up: it is never *)
(* handed to a handler                                                     *)
Definition catch {A B} (m : M A) (k : res A -> M B) : M B :=
  fun s => match m s with
           | (Fuel, s') => (Fuel, s')
           | (r, s') => k r s'
           end.

Definition get_st : M st := fun s => (Ok s, s).
Definition put_st (s' : st) : M unit := fun _ => (Ok tt, s').

(* The laws of the monad, pointwise in the state; [bind (ret a) f] and [f a] are convertible. *)

Lemma bind_ext {A B} (m : M A) (k1 k2 : A -> M B) s :
  (forall a s', k1 a s' = k2 a s') -> bind m k1 s = bind m k2 s.
Proof. intros H. unfold bind. destruct (m s) as [[a|e|n|] s1]; auto. Qed.

Lemma bind_assoc {A B C} (m : M A) (g : A -> M B) (k : B -> M C) s :
  bind (bind m g) k s = bind m (fun x => bind (g x) k) s.
Proof. unfold bind. destruct (m s) as [[a|e|n|] s1]; reflexivity. Qed.

Lemma bind_catch {A B} (m : M A) (f : A -> M B) s :
  bind m f s = catch m (fun r => match r with
                                 | Ok a => f a | Err e => fail e
                                 | Panic n => panic n | Fuel => lift Fuel end) s.
Proof. unfold bind, catch. destruct (m s) as [[a|e|n|] s']; reflexivity. Qed.

Lemma bind_ok {A B} (m : M A) (f : A -> M B) s b s' :
  bind m f s = (Ok b, s') -> exists a s1, m s = (Ok a, s1) /\ f a s1 = (Ok b, s').
Proof.
  unfold bind. destruct (m s) as [[a|e|n|] s1]; try discriminate. intros H. exists a, s1. auto.
Qed.

Lemma bind_inv {A B} (m : M A) (f : A -> M B) s r s' :
  bind m f s = (r, s') -> r <> Fuel ->
  exists r1 s1, m s = (r1, s1) /\ r1 <> Fuel /\ bind (lift r1) f s1 = (r, s').
Proof.
  unfold bind, lift. destruct (m s) as [r1 s1]. intros E Hr. exists r1, s1.
  split; [reflexivity|]. split; [intros ->; inversion E; subst; congruence|exact E].
Qed.

Lemma catch_inv {A B} (m : M A) (h : res A -> M B) s r s' :
  catch m h s = (r, s') -> r <> Fuel ->
  exists r1 s1, m s = (r1, s1) /\ r1 <> Fuel /\ h r1 s1 = (r, s').
Proof.
  unfold catch. destruct (m s) as [r1 s1]. intros E Hr. exists r1, s1.
  split; [reflexivity|]. destruct r1; try (split; [discriminate|exact E]).
  inversion E; subst. congruence.
Qed.
