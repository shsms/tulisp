(* C05: what the capture walk of `lambda` returns on a body from program text *)
(* (subst, caps_ok, closed).  That the walk returns it is proved in            *)
(* CaptureGen.v, for any body, from the equations of the walk in Walks.v.      *)
From TL Require Import Base.Base Model.Reader Model.Printer Model.Store Model.Eval.
Local Open Scope nat_scope.
Local Open Scope list_scope.

Lemma find_cap_app c1 c2 x :
  find_cap (c1 ++ c2) x = match find_cap c1 x with Some c => Some c | None => find_cap c2 x end.
Proof.
  induction c1 as [|[from to] c1 IH]; simpl; [reflexivity|].
  destruct (sym_eq x from); [reflexivity|apply IH].
Qed.

Lemma find_cap_stable c1 c2 x : find_cap c1 x <> None -> find_cap (c1 ++ c2) x = find_cap c1 x.
Proof. intros H. rewrite find_cap_app. destruct (find_cap c1 x); [reflexivity|congruence]. Qed.

(* bodies as they come from program text: every symbol is an interned symbol *)
Fixpoint only_syms (x : sx) : bool :=
  match x with
  | USym _ _ | Cell _ _ _ | Lam _ _ | Mac _ _ => false
  | Cons a d => only_syms a && only_syms d
  | Quote v | Bq v | Unq v | Splice v | Sharp v => only_syms v
  | _ => true
  end.

(* the body with the captured symbols replaced by their cells *)
Fixpoint subst (caps : cap_list) (x : sx) : sx :=
  match x with
  | Sym _ => match find_cap caps x with Some c => c | None => x end
  | Cons a d => Cons (subst caps a) (subst caps d)
  | Quote v => Quote (subst caps v) | Bq v => Bq (subst caps v)
  | Unq v => Unq (subst caps v) | Splice v => Splice (subst caps v)
  | Sharp v => Sharp (subst caps v)
  | o => o
  end.

Section Capture.
Variable s : st.                 (* the state in which the lambda is created *)
Variable excl : list sx.         (* its parameters *)

(* a variable is captured iff it is locally bound at creation and not a parameter *)
Definition capturable (n : text) : bool :=
  b_lex_bound (sget s (key_of_name n)) && negb (in_excl excl (Sym n)).

(* what the walk leaves of s: it writes only the slots of the cells it makes *)
Definition name_agree (st : st) : Prop :=
  forall n, sget st (key_of_name n) = sget s (key_of_name n).

(* every entry of the capture list: an interned, capturable variable and a   *)
(* cell for it whose root is the variable's key                               *)
Definition caps_ok (caps : cap_list) : Prop :=
  Forall (fun p => exists n id, fst p = Sym n /\ snd p = Cell n id (key_of_name n) /\
                                capturable n = true) caps.

(* every capturable variable occurring in x has its cell in caps *)
Fixpoint closed (caps : cap_list) (x : sx) : Prop :=
  match x with
  | Sym n => capturable n = true -> find_cap caps x <> None
  | Cons a d => closed caps a /\ closed caps d
  | Quote v | Bq v | Unq v | Splice v | Sharp v => closed caps v
  | _ => True
  end.

Lemma find_cap_ok caps n c : caps_ok caps -> find_cap caps (Sym n) = Some c ->
  capturable n = true /\ exists id, c = Cell n id (key_of_name n).
Proof.
  intros H. induction H as [|[from to] caps (m & id & Hf & Ht & Hc) _ IH]; [discriminate|].
  simpl in Hf, Ht. subst from to. simpl. destruct (text_eqb n m) eqn:E.
  - apply text_eqb_eq in E. subst m. intros Hs. inversion Hs. split; [assumption|eauto].
  - assumption.
Qed.

Lemma subst_ext caps more : caps_ok (caps ++ more) -> forall x,
  only_syms x = true -> closed caps x -> subst (caps ++ more) x = subst caps x.
Proof.
  intros Hok. induction x; simpl; intros Ho Hc; try reflexivity; try discriminate;
    try (rewrite IHx by assumption; reflexivity).
  - (* Sym *) rewrite find_cap_app. destruct (find_cap caps (Sym n)) eqn:E; [reflexivity|].
    destruct (find_cap more (Sym n)) eqn:E2; [|reflexivity].
    exfalso. assert (find_cap (caps ++ more) (Sym n) = Some s0) by (rewrite find_cap_app, E; exact E2).
    destruct (find_cap_ok _ _ _ Hok H) as [Hcap _]. apply (Hc Hcap). reflexivity.
  - apply andb_true_iff in Ho as [H1 H2]. destruct Hc as [C1 C2].
    rewrite IHx1, IHx2 by assumption. reflexivity.
Qed.

Lemma closed_ext caps more : forall x, closed caps x -> closed (caps ++ more) x.
Proof.
  induction x; auto.
  - intros H Hc. rewrite find_cap_stable; auto.
  - intros [H1 H2]. split; auto.
Qed.

Lemma caps_ok_app a b : caps_ok a -> caps_ok b -> caps_ok (a ++ b).
Proof. intros. apply Forall_app. split; assumption. Qed.

Lemma app_assoc_caps (a b c : cap_list) : (a ++ b) ++ c = a ++ (b ++ c).
Proof. symmetry. apply app_assoc. Qed.

End Capture.

Theorem not_capturable_untouched s excl caps n :
  caps_ok s excl caps -> capturable s excl n = false -> subst caps (Sym n) = Sym n.
Proof.
  intros Hok Hc. cbn [subst]. destruct (find_cap caps (Sym n)) eqn:E; [|reflexivity].
  destruct (find_cap_ok s excl _ _ _ Hok E) as [H _]. congruence.
Qed.

Theorem capturable_replaced_by_its_cell s excl caps n :
  caps_ok s excl caps -> closed s excl caps (Sym n) -> capturable s excl n = true ->
  exists id, subst caps (Sym n) = Cell n id (key_of_name n).
Proof.
  intros Hok Hc Hcap. cbn [subst closed] in *. specialize (Hc Hcap).
  destruct (find_cap caps (Sym n)) eqn:E; [|congruence].
  destruct (find_cap_ok s excl _ _ _ Hok E) as [_ [id ->]]. eauto.
Qed.
