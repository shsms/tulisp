(* C16: line / column arithmetic of [walk], the tokenizer's [advance] folded over a *)
(* text.  [walk] stands alone: only scan_ident (here) and skip_comment (Lexer.v)   *)
(* are shown to move by it; of next_tok, read_string, tok1, tok2 no lemma says so. *)
From TL Require Import Base.Base Model.Reader.
Local Open Scope N_scope.
Local Open Scope list_scope.

Fixpoint walk (cs : text) (line pos : N) : N * N :=
  match cs with
  | [] => (line, pos)
  | c :: r => let '(l, p) := advance c line pos in walk r l p
  end.

Fixpoint count_nl (cs : text) : N :=
  match cs with [] => 0 | c :: r => (if N.eqb c c_nl then 1 else 0) + count_nl r end.

Fixpoint after_nl (cs : text) : text :=
  match cs with
  | [] => []
  | c :: r => if N.eqb (count_nl r) 0 then (if N.eqb c c_nl then r else c :: r) else after_nl r
  end.

Lemma walk_app a b line pos :
  walk (a ++ b) line pos = let '(l, p) := walk a line pos in walk b l p.
Proof.
  revert line pos. induction a as [|c a IH]; intros line pos; simpl; [reflexivity|].
  destruct (advance c line pos) as [l p]. apply IH.
Qed.

(* line = 1 + number of newlines consumed; column = 1 + number of characters  *)
(* consumed since the last newline (counted in characters, not bytes)          *)
Theorem walk_spec : forall cs line pos,
  walk cs line pos =
  (line + count_nl cs,
   if N.eqb (count_nl cs) 0 then pos + N.of_nat (List.length cs)
   else 1 + N.of_nat (List.length (after_nl cs))).
Proof.
  induction cs as [|c cs IH]; intros line pos.
  - simpl. f_equal; lia.
  - cbn [walk count_nl after_nl List.length]. unfold advance.
    destruct (N.eqb c c_nl); rewrite IH; destruct (count_nl cs); cbn [N.eqb N.add]; f_equal; lia.
Qed.

Corollary walk_from_start cs :
  fst (walk cs 1 1) = 1 + count_nl cs /\ 1 <= snd (walk cs 1 1).
Proof.
  rewrite walk_spec. cbn [fst snd]. split; [reflexivity|]. destruct (N.eqb (count_nl cs) 0); lia.
Qed.

(* which flags the scan goes on with does not matter for positions and extents *)
Lemma scan_ident_step c r line pos first i f acc : ident_stop c = false ->
  exists i1 f1, scan_ident (c :: r) line pos first i f acc =
                let '(l1, p1) := advance c line pos in scan_ident r l1 p1 false i1 f1 (c :: acc).
Proof.
  intros Hs. cbn [scan_ident]. rewrite Hs. destruct (advance c line pos) as [l1 p1].
  destruct (N.eqb c c_minus); [destruct first; eauto|].
  destruct (is_digit c); [eauto|]. destruct (N.eqb c c_dot); [|eauto].
  destruct (i && negb f); [eauto|]. destruct f; eauto.
Qed.

Lemma scan_ident_walk cs : forall line pos first i f acc out i' f' rest l p,
  scan_ident cs line pos first i f acc = (out, i', f', rest, l, p) ->
  exists consumed, cs = consumed ++ rest /\ out = rev acc ++ consumed /\
                   walk consumed line pos = (l, p) /\
                   forallb (fun c => negb (ident_stop c)) consumed = true.
Proof.
  induction cs as [|c r IH]; intros line pos first i f acc out i' f' rest l p H;
    [|destruct (ident_stop c) eqn:Es; [simpl in H; rewrite Es in H|]].
  (* the scan stops: at the end of the text, or before a delimiter *)
  1, 2: injection H as <- _ _ <- <- <-; exists []; rewrite !app_nil_r; auto.
  destruct (scan_ident_step c r line pos first i f acc Es) as (i1 & f1 & E).
  rewrite E in H. clear E. destruct (advance c line pos) as [l1 p1] eqn:Ea.
  apply IH in H as (k & -> & -> & Hw & Hk). exists (c :: k). simpl.
  rewrite Ea, Es, <- app_assoc. auto.
Qed.
