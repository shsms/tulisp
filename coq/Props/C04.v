(* C04 - Self tail calls use constant stack and do not change meaning.       *)
(* Statements only; the proofs are in Proofs/TailCalls.v, Proofs/Calls.v,       *)
(* Proofs/Hidden.v and Proofs/Tramp.v, on top of Proofs/EvalRel.v.              *)
From TL Require Import Base.Base Model.Reader Model.Printer Model.Store Model.Eval Model.Init.
From TL Require Import Proofs.EvalRel Proofs.TailCalls Proofs.Calls Proofs.Hidden Proofs.Tramp.
Local Open Scope list_scope.

(* mark_tail_calls rewrites EXACTLY the self-calls in tail position (the last *)
(* form of the body; recursively the tail of progn / let / let*, both branches  *)
(* of if, the body of every cond clause) into the marker form                   *)
(* (list Bounce . args); every other part of the body - in particular every     *)
(* self-call that is not in tail position - is unchanged (mt_body / mt_form).   *)
Theorem C04_only_tail_self_calls_rewritten : forall fuel name body body',
  mark_tail fuel name body = Ok body' -> mt_body name body body'.
Proof. exact mark_tail_spec. Qed.

(* the marker form evaluates the argument forms of the tail call once each,    *)
(* left to right, in the callee's current bindings - as the call would          *)
Theorem C04_marker_evaluates_arguments : forall F rec load args s,
  (forall s0, rec (TEval Bounce) s0 = (Ok Bounce, s0)) ->
  apply_prim F rec load PList (Cons Bounce args) s =
  bind (eval_each rec (items args)) (fun vs => ret (Cons Bounce (of_list vs Nil))) s.
Proof. exact marker_evaluates_arguments. Qed.

(* a call = first activation, then the trampoline loop; one iteration binds   *)
(* the parameters to the marker's values WITHOUT evaluating them again, runs    *)
(* the body, unbinds; the loop ends with the first result that is no marker     *)
Theorem C04_call_enters_trampoline : forall F f evalp ps body args s,
  run F (S f) (TCall evalp (Lam ps body) args) s =
  bind (eval_function (run F f) evalp ps body args) (fun r => run F f (TTramp ps body r)) s.
Proof. exact call_enters_trampoline. Qed.
Theorem C04_trampoline_iteration : forall F f ps body vals s,
  run F (S f) (TTramp ps body (Cons Bounce vals)) s =
  bind (eval_function (run F f) false ps body vals) (fun r' => run F f (TTramp ps body r')) s.
Proof. exact trampoline_iteration. Qed.
Theorem C04_trampoline_exit : forall F f ps body r s, is_bounced r = false ->
  run F (S f) (TTramp ps body r) s = (Ok r, s).
Proof. exact trampoline_exit. Qed.
Theorem C04_values_not_reevaluated : forall rec ps vs s,
  zip_args rec false ps vs s =
  match zip_pure ps (firstn (n_used ps (List.length vs)) vs) with
  | Ok b => (Ok (b, skipn (n_used ps (List.length vs)) vs), s)
  | Err e => (Err e, s) | Panic n => (Panic n, s) | Fuel => (Fuel, s)
  end.
Proof. exact zip_args_values_untouched. Qed.

(* for ANY number of iterations, any outcome: the binding stacks are left      *)
(* balanced and no panic site is reached; in the model the loop is iterative     *)
(* (each iteration is one step of the same TTramp task: no nesting of            *)
(* activations grows with the number of iterations)                              *)
Theorem C04_trampoline_balanced : forall F f ps body r s r' s',
  run F f (TTramp ps body r) s = (r', s') -> r' <> Fuel -> Inv s s' /\ np r'.
Proof. exact trampoline_balanced. Qed.

(* THE SIMULATION.  [nested] (Proofs/Tramp.v) is ordinary recursion on the      *)
(* marker: the callee's activation - bind the parameters to the marker's values, *)
(* run the body, and if that yields a marker again recurse - runs INSIDE the      *)
(* caller's activation, whose parameter bindings stay on the binding stacks until *)
(* the callee has returned.  For every parameter list, body, starting marker or   *)
(* value, state, number k of nested activations and outcome (value, error, host   *)
(* failure - anything but fuel exhaustion): the interpreter's trampoline task     *)
(* TTramp, which pops each frame before the next one is pushed, has the same      *)
(* outcome and leaves the same state (every component equal, every binding stack  *)
(* equal entry by entry).  Side conditions: the parameters are bindable symbols   *)
(* (a call cannot succeed otherwise); the run gives no parameter symbol a global  *)
(* value (defun/defconst-style set_global) or macro definition while it is a      *)
(* parameter [quietP]; a parameter symbol unbound outside the call carries no     *)
(* global marker [cleanP] - without these the two really differ (see DESIGN.md).  *)
Theorem C04_trampoline_is_recursion : forall F f ps body pl,
  parse_params ps = Ok pl -> Forall bindable (map p_sym pl) ->
  forall k r0 s r s1',
  nested F f ps body k r0 s = (r, s1') -> r <> Fuel ->
  quietP pl s s1' -> cleanP pl s ->
  exists s2', run F (f + k) (TTramp ps body r0) s = (r, s2') /\ equiv s1' s2'.
Proof. exact nested_is_tramp. Qed.

(* the unrolled loop of the simulation is the interpreter's task *)
Theorem C04_loop_is_interpreter_task : forall F f ps body k r0 s r s',
  tramp F f ps body k r0 s = (r, s') -> r <> Fuel ->
  run F (f + k) (TTramp ps body r0) s = (r, s').
Proof. exact tramp_run. Qed.

(* [equiv] (equal up to the representation of the store) is invisible to every  *)
(* later evaluation: same outcome, equivalent final states                        *)
Theorem C04_equivalent_states_indistinguishable : forall F g t s1 s2 r s1',
  equiv s1 s2 -> run F g t s1 = (r, s1') -> r <> Fuel ->
  exists s2', run F g t s2 = (r, s2') /\ equiv s1' s2'.
Proof. exact equiv_indistinguishable. Qed.

(* the engine of the simulation: binding-stack entries buried below the top of a *)
(* stack (hk, at height hf from the bottom) are invisible to evaluation - any     *)
(* task, any fuel: same outcome, the visible entries related, the buried ones     *)
(* untouched - provided no tracked symbol whose buried entries reach the bottom   *)
(* gets its global slot written [quiet]                                           *)
Theorem C04_buried_entries_invisible : forall hk hf (trk : key -> Prop),
  (forall k, hk k <> [] -> trk k) ->
  forall F f t s1 s2 r s1',
  SR hk hf s1 s2 -> wf hf trk s2 -> run F f t s1 = (r, s1') -> r <> Fuel -> quiet hf trk s1 s1' ->
  exists s2', run F f t s2 = (r, s2') /\ SR hk hf s1' s2' /\ wf hf trk s2' /\ dmono s2 s2'.
Proof. intros hk hf trk Ht F f t. exact (proj2 (run_R2 hk hf trk Ht F f t)). Qed.

Print Assumptions C04_trampoline_is_recursion. Print Assumptions C04_loop_is_interpreter_task.
Print Assumptions C04_equivalent_states_indistinguishable. Print Assumptions C04_buried_entries_invisible.

Print Assumptions C04_only_tail_self_calls_rewritten. Print Assumptions C04_marker_evaluates_arguments.
Print Assumptions C04_call_enters_trampoline. Print Assumptions C04_trampoline_iteration.
Print Assumptions C04_trampoline_exit. Print Assumptions C04_values_not_reevaluated.
Print Assumptions C04_trampoline_balanced.

(* non-vacuity: what is stored for a definition with tail and non-tail self   *)
(* calls; a loop of 200 iterations with &optional/&rest, through funcall and     *)
(* mapcar, equal to the same definition written with (funcall 'f ..), which is   *)
(* not rewritten (ordinary recursion)                                            *)
Definition F0 : fops :=
  {| f_add := fun _ _ => 0%Z; f_sub := fun _ _ => 0%Z; f_mul := fun _ _ => 0%Z;
     f_div := fun _ _ => 0%Z; f_rem := fun _ _ => 0%Z; f_pow := fun _ _ => 0%Z;
     f_max := fun _ _ => 0%Z; f_min := fun _ _ => 0%Z; f_of_int := fun z => z;
     f_to_int := fun z => z; f_round := fun z => z; f_trunc := fun z => z;
     f_lt := Z.ltb; f_le := Z.leb; f_eq := Z.eqb; f_is_finite := fun _ => true;
     f_to_dec := fun _ => []; f_of_dec := fun _ => None |}.
Definition ev0 (n : nat) (p : string) := fst (eval_string F0 n (s2t p) (init_state [] None)).
Example C04_stored_body :
  match ev0 40 "(defun f (n) (if (< n 1) 0 (progn (f 0) (f (- n 1))))) f" with
  | Ok (Lam _ body) => print F0 body = s2t "((if (< n 1) 0 (progn (f 0) (list Bounce (- n 1)))))"
  | _ => False
  end.
Proof. vm_compute. reflexivity. Qed.
Example C04_same_as_recursion :
  ev0 900 "(defun f (n &optional acc &rest r) (cond ((< n 1) (list acc r)) (t (f (- n 1) (+ (if acc acc 0) n) n r)))) (list (f 200) (funcall 'f 3 1) (mapcar 'f '(1 2)))"
  = ev0 2500 "(defun f (n &optional acc &rest r) (cond ((< n 1) (list acc r)) (t (funcall 'f (- n 1) (+ (if acc acc 0) n) n r)))) (list (f 200) (funcall 'f 3 1) (mapcar 'f '(1 2)))".
Proof. vm_compute. reflexivity. Qed.

(* REFUTED for tail calls inside let / let* (defect D35, known finding).  The  *)
(* full statement, identical to ordinary recursive evaluation of the same      *)
(* definition, fails: the rewritten tail call leaves the let before the next    *)
(* activation runs, ordinary recursion runs the callee inside it, and tulisp    *)
(* variables are dynamically scoped.  The witness, replayed on the              *)
(* implementation, is the finding; the simulation theorem above is therefore    *)
(* stated against recursion on the marker, which leaves the let as well.        *)
Theorem C04_identical_to_recursion_refuted :
  exists rewritten ordinary : string,
    ev0 300 rewritten = Ok (Int 0) /\ ev0 300 ordinary = Ok (Int 1).
Proof.
  exists "(setq m 0) (defun f (n) (if (< n 1) m (let ((m n)) (f (- n 1))))) (f 3)",
         "(setq m 0) (defun f (n) (if (< n 1) m (let ((m n)) (funcall 'f (- n 1))))) (f 3)".
  split; vm_compute; reflexivity.
Qed.
Print Assumptions C04_identical_to_recursion_refuted.

(* non-vacuity of the simulation: a stored definition, five nested activations, *)
(* every hypothesis of C04_trampoline_is_recursion holds                           *)
Definition st1 : st :=
  snd (eval_string F0 40 (s2t "(defun f (n acc) (if (< n 1) acc (f (- n 1) (+ acc n))))") (init_state [] None)).
Definition lam1 : sx * sx :=
  match fst (eval_string F0 40 (s2t "f") st1) with Ok (Lam ps body) => (ps, body) | _ => (Nil, Nil) end.
Definition pl1 : list param := match parse_params (fst lam1) with Ok pl => pl | _ => [] end.
Definition start1 : sx := Cons Bounce (of_list [Int 4; Int 0] Nil).
Definition out1 := nested F0 60 (fst lam1) (snd lam1) 6 start1 st1.
Example C04_simulation_applies :
  parse_params (fst lam1) = Ok pl1 /\ Forall bindable (map p_sym pl1) /\
  List.length pl1 = 2%nat /\ fst out1 = Ok (Int 10) /\
  quietP pl1 st1 (snd out1) /\ cleanP pl1 st1 /\
  fst (run F0 66 (TTramp (fst lam1) (snd lam1) start1) st1) = Ok (Int 10).
Proof.
  split; [vm_compute; reflexivity|].
  split.
  { (* evaluate the parameter list first: [constructor] would otherwise unfold the run by unification *)
    assert (E : map p_sym pl1 = [Sym (s2t "n"); Sym (s2t "acc")]) by (vm_compute; reflexivity).
    rewrite E. repeat constructor; eexists; split; reflexivity. }
  split; [vm_compute; reflexivity|]. split; [vm_compute; reflexivity|].
  split; [|split].
  - intros key Hin. vm_compute in Hin. destruct Hin as [<-|[<-|[]]]; vm_compute; split; reflexivity.
  - intros key Hin. vm_compute in Hin. destruct Hin as [<-|[<-|[]]]; vm_compute; intros; reflexivity.
  - vm_compute. reflexivity.
Qed.

(* REFUTED (known findings D42, D43): the rewritten tail call (list Bounce ..) looks  *)
(* its head up as a variable, so a parameter named list breaks the self tail call;     *)
(* and the loop re-enters the function object that was entered, not the current         *)
(* definition of the name                                                                *)
Example C04_tail_call_is_recursion_refuted_list_variable :
  ev0 60 "(defun my-len (list acc) (if (null list) acc (my-len (cdr list) (+ acc 1)))) (my-len '(1 2 3) 0)" = Err EUndef /\
  ev0 60 "(defun my-len (l acc) (if (null l) acc (+ 0 (my-len (cdr l) (+ acc 1))))) (let ((list 5)) (my-len '(1 2 3) 0))" = Ok (Int 3).
Proof. vm_compute. split; reflexivity. Qed.
Example C04_tail_call_is_recursion_refuted_redefinition :
  ev0 60 "(defun f43 (n) (if (> n 0) (f43 (- n 1)) 'old)) (setq g43 f43) (defun f43 (n) 'new) (funcall g43 2)" = Ok (Sym (s2t "old")).
Proof. vm_compute. reflexivity. Qed.

Check C04_only_tail_self_calls_rewritten : forall fuel name body body',
  mark_tail fuel name body = Ok body' -> mt_body name body body'.
Check C04_trampoline_is_recursion : forall F f ps body pl,
  parse_params ps = Ok pl -> Forall bindable (map p_sym pl) ->
  forall k r0 s r s1',
  nested F f ps body k r0 s = (r, s1') -> r <> Fuel ->
  quietP pl s s1' -> cleanP pl s ->
  exists s2', run F (f + k) (TTramp ps body r0) s = (r, s2') /\ equiv s1' s2'.
