(* C02: argument evaluation and parameter binding of Model/Eval.v.          *)
From TL Require Import Base.Base Model.Reader Model.Printer Model.Store Model.Eval.
Local Open Scope nat_scope.
Local Open Scope list_scope.

(* what the parameter list does with the already evaluated values *)
Fixpoint zip_pure (ps : list param) (vs : list sx) : res (list sx) :=
  match ps with
  | [] => Ok []
  | p :: ps' =>
      let cons_ok v r := match r with Ok l => Ok (v :: l) | e => e end in
      if p_opt p then
        match vs with
        | v :: vs' => cons_ok v (zip_pure ps' vs')
        | [] => cons_ok Nil (zip_pure ps' [])
        end
      else if p_rest p then cons_ok (of_list vs Nil) (zip_pure ps' [])
      else match vs with
           | v :: vs' => cons_ok v (zip_pure ps' vs')
           | [] => Err EType
           end
  end.

(* how many of n supplied arguments the parameter list consumes *)
Fixpoint n_used (ps : list param) (n : nat) : nat :=
  match ps with
  | [] => 0
  | p :: ps' =>
      if p_opt p then match n with S n' => S (n_used ps' n') | O => 0 end
      else if p_rest p then n
      else match n with S n' => S (n_used ps' n') | O => 0 end
  end.

Lemma n_used_le ps : forall n, n_used ps n <= n.
Proof.
  induction ps as [|p ps IH]; intros n; simpl; [lia|].
  destruct (p_opt p); [destruct n; [lia|specialize (IH n); lia]|].
  destruct (p_rest p); [lia|]. destruct n; [lia|specialize (IH n); lia].
Qed.

Section Calls.
Variable rec : task -> M sx.

(* the factored form: evaluate the consumed arguments, once each, left to  *)
(* right, in the state of the caller; then a pure distribution over the      *)
(* parameters.  No binding is made in between.                               *)
Definition zip_factored (ps : list param) (args : list sx) : M (list sx * list sx) :=
  fun s =>
    let k := n_used ps (List.length args) in
    match eval_each rec (firstn k args) s with
    | (Ok vs, s') => match zip_pure ps vs with
                     | Ok bound => (Ok (bound, skipn k args), s')
                     | Err e => (Err e, s') | Panic n => (Panic n, s') | Fuel => (Fuel, s')
                     end
    | (Err e, s') => (Err e, s') | (Panic n, s') => (Panic n, s') | (Fuel, s') => (Fuel, s')
    end.

Lemma eval_each_nil s : eval_each rec [] s = (Ok [], s).
Proof. reflexivity. Qed.

Lemma args_cons (e : bool) a l :
  (if e then eval_each rec (a :: l) else ret (a :: l)) =
  (v <- (if e then ev rec a else ret a) ;; vs <- (if e then eval_each rec l else ret l) ;;
   ret (v :: vs)).
Proof. destruct e; reflexivity. Qed.

(* for both ways in which arguments reach a callee: evaluated (a call), or as *)
(* they are (values handed over by funcall, mapcar, sort, the trampoline ...)  *)
Theorem zip_args_spec e : forall ps args s,
  zip_args rec e ps args s =
  (let k := n_used ps (List.length args) in
   vs <- (if e then eval_each rec (firstn k args) else ret (firstn k args)) ;;
   bound <- lift (zip_pure ps vs) ;; ret (bound, skipn k args)) s.
Proof.
  induction ps as [|p ps IH]; intros args s; [destruct e; reflexivity|].
  (* nothing left for the other parameters: no evaluation *)
  assert (Hnil : forall s1, zip_args rec e ps [] s1 =
                            (bound <- lift (zip_pure ps []) ;; ret (bound, [])) s1).
  { intros s1. rewrite IH. cbn [List.length]. rewrite firstn_nil, skipn_nil.
    destruct e; reflexivity. }
  cbn [zip_args n_used zip_pure].
  destruct (p_opt p); [|destruct (p_rest p)];
    [destruct args as [|a args]| |destruct args as [|a args]]; cbn [List.length firstn skipn].
  (* goals 2 and 5 (optional, required): the parameter takes the first argument *)
  2, 5: rewrite args_cons; unfold bind;
    (destruct ((if e then ev rec a else ret a) s) as [[v|?|?|] s1]; try reflexivity);
    rewrite IH; unfold bind, lift;
    (destruct ((if e then eval_each rec _ else ret _) s1) as [[vs|?|?|] s2]; try reflexivity);
    unfold ret; destruct (zip_pure ps vs); reflexivity.
  - (* optional, no argument left *)
    unfold bind. rewrite Hnil.
    destruct e; cbn; destruct (zip_pure ps []); reflexivity.
  - (* &rest: all the arguments *)
    rewrite firstn_all, skipn_all. unfold bind.
    destruct ((if e then eval_each rec args else ret args) s) as [[vs|?|?|] s1]; try reflexivity.
    rewrite Hnil. unfold bind, lift. destruct (zip_pure ps []); reflexivity.
  - (* required, no argument left *) destruct e; reflexivity.
Qed.

Lemma zip_args_nil_pure : forall ps s,
  zip_args rec true ps [] s =
  match zip_pure ps [] with
  | Ok b => (Ok (b, []), s) | Err e => (Err e, s) | Panic n => (Panic n, s) | Fuel => (Fuel, s) end.
Proof. intros ps s. rewrite zip_args_spec. cbn [List.length]. rewrite firstn_nil, skipn_nil. reflexivity. Qed.

(* a call: zip_factored is the right-hand side above with the binds written out *)
Theorem zip_args_factors : forall ps args s,
  zip_args rec true ps args s = zip_factored ps args s.
Proof. exact (zip_args_spec true). Qed.

Theorem zip_args_values_untouched : forall ps vs s,
  zip_args rec false ps vs s =
  match zip_pure ps (firstn (n_used ps (List.length vs)) vs) with
  | Ok b => (Ok (b, skipn (n_used ps (List.length vs)) vs), s)
  | Err e => (Err e, s) | Panic n => (Panic n, s) | Fuel => (Fuel, s)
  end.
Proof. exact (zip_args_spec false). Qed.

Theorem too_many_args_no_body e psx body args s pl vs x rest s1 :
  parse_params psx = Ok pl -> zip_args rec e pl (items args) s = (Ok (vs, x :: rest), s1) ->
  eval_function rec e psx body args s = (Err EType, s1).
Proof.
  intros Hp Hz. unfold eval_function, bind, lift. rewrite Hp, Hz. reflexivity.
Qed.

Theorem failed_args_no_body e psx body args s pl r s1 :
  parse_params psx = Ok pl -> zip_args rec e pl (items args) s = (r, s1) ->
  (forall x, r <> Ok x) ->
  exists r', eval_function rec e psx body args s = (r', s1) /\ (forall x, r' <> Ok x) /\
             forall body2, eval_function rec e psx body2 args s = (r', s1).
Proof.
  intros Hp Hz Hr. unfold eval_function, bind, lift. rewrite Hp, Hz.
  destruct r as [x|e0|n|]; [exfalso; eapply Hr; reflexivity| | |];
    eexists; (split; [reflexivity|split; [discriminate|reflexivity]]).
Qed.

Theorem call_factors e psx body args s pl :
  parse_params psx = Ok pl ->
  eval_function rec e psx body args s =
  match zip_args rec e pl (items args) s with
  | (Ok (vs, []), s1) =>
      bind (bind_all (map p_sym pl) vs [])
           (fun _ => catch (eval_progn rec body)
                           (fun r => bind (unbind_all (map p_sym pl)) (fun _ => lift r))) s1
  | (Ok (_, _ :: _), s1) => (Err EType, s1)
  | (Err e0, s1) => (Err e0, s1) | (Panic n, s1) => (Panic n, s1) | (Fuel, s1) => (Fuel, s1)
  end.
Proof.
  intros Hp. unfold eval_function. unfold bind at 1. unfold lift. rewrite Hp.
  unfold bind at 1. destruct (zip_args rec e pl (items args) s) as [[[vs rest]|e0|n|] s1];
    try reflexivity.
  destruct rest; reflexivity.
Qed.

End Calls.

(* built-ins called by funcall / mapcar / sort get their values quoted *)
Theorem quote_arg_roundtrip F f v s : run F (S f) (TEval (quote_arg v)) s = (Ok v, s).
Proof. destruct v; reflexivity. Qed.

Theorem eval_each_quoted F f : forall vs s,
  eval_each (run F (S f)) (map quote_arg vs) s = (Ok vs, s).
Proof.
  induction vs as [|v vs IH]; intros s; [reflexivity|].
  cbn [map eval_each]. unfold bind, ev. rewrite quote_arg_roundtrip, IH. reflexivity.
Qed.
