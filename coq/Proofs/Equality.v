(* C14: eq / eql / equal and the hash-table model of Model/Eval.v.          *)
From TL Require Import Base.Base Model.Reader Model.Printer Model.Store Model.Eval.
Local Open Scope list_scope.

Lemma text_eqb_spec a b : reflect (a = b) (text_eqb a b).
Proof. apply iff_reflect. symmetry. apply text_eqb_eq. Qed.

Lemma text_eqb_sym a b : text_eqb a b = text_eqb b a.
Proof. destruct (text_eqb_spec a b), (text_eqb_spec b a); congruence. Qed.

Lemma sym_eq_refl a : symbolp a = true -> sym_eq a a = true.
Proof.
  destruct a; simpl; try discriminate; intros _.
  - apply text_eqb_refl. - apply Pos.eqb_refl. - rewrite Pos.eqb_refl. reflexivity.
Qed.

Lemma sym_eq_nonsym a b : symbolp b = false -> sym_eq a b = false.
Proof. destruct a; try reflexivity; destruct b; try reflexivity; discriminate. Qed.

Lemma sym_eq_sym a b : sym_eq a b = sym_eq b a.
Proof.
  destruct a; try (symmetry; apply sym_eq_nonsym; reflexivity);
    destruct b; try reflexivity; simpl.
  - apply text_eqb_sym.
  - apply Pos.eqb_sym.
  - f_equal; apply Pos.eqb_sym.
Qed.

(* In the sweeps over two values below, a pair of constructors on which the  *)
(* model function answers otherwise is closed by [case (l H)], [l : x <> y]:  *)
(* typing [l H] makes the kernel evaluate the function; [discriminate H]      *)
(* evaluates it in the tactic machine, ten times slower on matches this wide. *)
Lemma some_false_true : Some false <> Some true.
Proof. discriminate. Qed.

(* [eq_model a b] for a heap value a other than a table and a variable b, with [s] *)
(* for [symbolp b] and [c] for [is_heap b && same_repr a b]: no or unknown, never yes *)
Lemma heap_unknown (s c : bool) :
  (if s then Some false else if c then None else Some false) <> Some true.
Proof. destruct s, c; discriminate. Qed.

Lemma eq_model_true a b : eq_model a b = Some true -> sym_eq a b = true \/ a = b.
Proof.
  intros H.
  destruct a; try destruct h;
    (* a heap value other than a table, against any b *)
    try (case (heap_unknown _ _ H));
    (* a is nil, t, a symbol or a table.  Of the pairs, in turn: those on which *)
    (* the answer is no; nil and nil, t and t; two symbols                       *)
    destruct b; try destruct h;
    try (case (some_false_true H)); try (right; reflexivity);
    try (left; injection H as H; exact H).
  (* two tables *)
  right. injection H as H. apply Pos.eqb_eq in H. congruence.
Qed.

Section Eq.
Variable F : fops.
(* the float comparison of the oracle on the values at hand: IEEE == is    *)
(* symmetric, and reflexive except on NaN                                   *)
Hypothesis f_eq_sym : forall x y, f_eq F x y = f_eq F y x.

Lemma sym_eq_equal a b : sym_eq a b = true -> equal F a b = true.
Proof. intros H. destruct a; try discriminate H; exact H. Qed.

Theorem equal_sym : forall a b, equal F a b = equal F b a.
Proof.
  induction a; intros b; destruct b; try reflexivity; try apply sym_eq_sym; simpl;
    auto using Z.eqb_sym, text_eqb_sym.
  rewrite IHa1, IHa2. reflexivity.
Qed.

(* values without NaN: every float in them compares equal to itself *)
Fixpoint no_nan (a : sx) : Prop :=
  match a with
  | Flt b => f_eq F b b = true
  | Cons x y => no_nan x /\ no_nan y
  | Quote x | Bq x | Unq x | Splice x | Sharp x => no_nan x
  | _ => True
  end.

Theorem equal_refl : forall a, no_nan a -> equal F a a = true.
Proof.
  induction a; simpl; intros H; auto.
  - apply Z.eqb_refl. - apply text_eqb_refl. - apply text_eqb_refl.
  - apply Pos.eqb_refl. - rewrite Pos.eqb_refl. reflexivity.
  - destruct H. rewrite IHa1, IHa2 by assumption. reflexivity.
Qed.

Theorem equal_string x y : equal F (Str x) (Str y) = true <-> x = y.
Proof. apply text_eqb_eq. Qed.
Theorem equal_int x y : equal F (Int x) (Int y) = true <-> x = y.
Proof. apply Z.eqb_eq. Qed.
Theorem equal_cons a d a' d' :
  equal F (Cons a d) (Cons a' d') = equal F a a' && equal F d d'.
Proof. reflexivity. Qed.
Theorem equal_cons_atom a d x : consp x = false -> equal F (Cons a d) x = false.
Proof. destruct x; try reflexivity; discriminate. Qed.
Theorem equal_int_float x y : equal F (Int x) (Flt y) = f_eq F (f_of_int F x) y.
Proof. reflexivity. Qed.

Lemma same_repr_equal : forall a b, no_nan a -> same_repr a b = true -> equal F a b = true.
Proof.
  induction a; intros b Hn H; destruct b; try (case (diff_false_true H)); try reflexivity;
    simpl in H |- *; auto.
  - apply Z.eqb_eq in H. subst. exact Hn.
  - apply andb_true_iff in H as [H1 H2]. destruct Hn. rewrite IHa1, IHa2; auto.
Qed.

(* eq (identity, where the pure model can decide it) implies equal *)
Theorem eq_implies_equal a b : no_nan a -> eq_model a b = Some true -> equal F a b = true.
Proof.
  intros Hn H. destruct (eq_model_true a b H) as [S| <-].
  - apply sym_eq_equal, S.
  - apply equal_refl, Hn.
Qed.

End Eq.

Theorem intern_same n : eq_model (Sym n) (Sym n) = Some true.
Proof. simpl. rewrite text_eqb_refl. reflexivity. Qed.
Theorem intern_distinct n m : n <> m -> eq_model (Sym n) (Sym m) = Some false.
Proof.
  intros H. simpl. destruct (text_eqb_spec n m); [contradiction|reflexivity].
Qed.
Theorem uninterned_never_interned n i m : eq_model (USym n i) (Sym m) = Some false.
Proof. reflexivity. Qed.
Theorem uninterned_distinct n i m j : i <> j -> eq_model (USym n i) (USym m j) = Some false.
Proof. intros H. simpl. destruct (Pos.eqb_spec i j); [contradiction|reflexivity]. Qed.

(* make-symbol / gensym take their serial from fresh_id: two calls, also with *)
(* the same name, give symbols that are not eq                                *)
Theorem fresh_ids_distinct s :
  let '(r1, s1) := fresh_id s in
  let '(r2, _) := fresh_id s1 in
  exists i j, r1 = Ok i /\ r2 = Ok j /\ i <> j.
Proof.
  simpl. exists (next_id s), (Pos.succ (next_id s)). repeat split. apply Pos.succ_discr.
Qed.

(* A hash table is an association list searched with eql.  [akey]: keys on  *)
(* which eql always has an answer in the pure model (eql_akey); between two  *)
(* heap values it may have none.                                             *)
Definition akey (x : sx) : bool :=
  match x with Int _ | Flt _ | Sym _ | USym _ _ | Nil | T => true | _ => false end.
Definition keq (a b : sx) : bool :=
  match eql_model a b with Some true => true | _ => false end.

Lemma eql_akey a b : akey a = true -> akey b = true -> eql_model a b = Some (keq a b).
Proof.
  intros Ha Hb. assert (H : match eql_model a b with Some _ => True | None => False end).
  { destruct a; try discriminate Ha; destruct b; try discriminate Hb; exact I. }
  unfold keq. destruct (eql_model a b) as [[|]|]; [reflexivity..|destruct H].
Qed.

(* eql compares keys by a code: a symbol from make-symbol is its serial,     *)
(* whatever its name, every other key is itself.  So keq is an equivalence. *)
Definition kcode (x : sx) : sx := match x with USym _ i => USym [] i | _ => x end.

Lemma keq_code a b : akey a = true -> akey b = true -> keq a b = true <-> kcode a = kcode b.
Proof.
  destruct a; try discriminate; destruct b; try discriminate; intros _ _;
    (* two kinds of key: neither side holds *)
    try (split; intros H; [case (diff_false_true H)|discriminate H]);
    unfold keq; simpl; try (split; reflexivity).
  - destruct (Z.eqb_spec z z0); split; congruence.
  - destruct (Z.eqb_spec bits bits0); split; congruence.
  - destruct (text_eqb_spec n n0); split; congruence.
  - destruct (Pos.eqb_spec id id0); split; congruence.
Qed.

Lemma keq_kcode a c : keq a c = keq (kcode a) c.
Proof. destruct a; reflexivity. Qed.

Lemma keq_refl a : akey a = true -> keq a a = true.
Proof. intros Ha. apply keq_code; auto. Qed.

Lemma keq_eq a b : akey a = true -> akey b = true -> keq a b = true ->
  forall c, keq a c = keq b c.
Proof.
  intros Ha Hb H c. apply keq_code in H; [|assumption..].
  rewrite (keq_kcode a), (keq_kcode b), H. reflexivity.
Qed.

Lemma keq_sym a b : akey a = true -> akey b = true -> keq a b = keq b a.
Proof.
  intros Ha Hb. apply eq_true_iff_eq. rewrite !keq_code by assumption. split; congruence.
Qed.

Definition akeys (l : list (sx * sx)) : Prop := Forall (fun p => akey (fst p) = true) l.

Lemma ht_put_akeys : forall l k v, akeys l -> akey k = true ->
  exists l', ht_put l k v = Ok l' /\ akeys l'.
Proof.
  induction l as [|[k' v'] l IH]; intros k v Hl Hk; simpl.
  - eexists; split; [reflexivity|]. constructor; [assumption|constructor].
  - inversion Hl as [|? ? Hk' Hl'].
    rewrite (eql_akey k' k Hk' Hk). destruct (keq k' k).
    + eexists; split; [reflexivity|]. constructor; assumption.
    + destruct (IH k v Hl' Hk) as (l' & E & Hl2). rewrite E.
      eexists; split; [reflexivity|]. constructor; assumption.
Qed.

Theorem find_put : forall l k v k', akeys l -> akey k = true -> akey k' = true ->
  forall l', ht_put l k v = Ok l' ->
  ht_find l' k' = if keq k k' then Ok v else ht_find l k'.
Proof.
  induction l as [|[k0 v0] l IH]; intros k v k' Hl Hk Hk' l' Hp; simpl in Hp.
  - injection Hp as <-. simpl. rewrite eql_akey by assumption. destruct (keq k k'); reflexivity.
  - apply Forall_cons_iff in Hl as [Hk0 Hl]. simpl in Hk0.
    rewrite eql_akey in Hp by assumption. destruct (keq k0 k) eqn:E0.
    + injection Hp as <-. simpl. rewrite eql_akey, (keq_eq k0 k) by assumption.
      destruct (keq k k'); reflexivity.
    + destruct (ht_put l k v) as [l2| | |] eqn:E2; try discriminate Hp. injection Hp as <-.
      simpl. rewrite eql_akey, (IH k v k' Hl Hk Hk' l2 E2) by assumption.
      destruct (keq k0 k') eqn:E1, (keq k k') eqn:E3; try reflexivity.
      (* k0 ~ k' and k ~ k' would give k0 ~ k *)
      apply keq_code in E1, E3; try assumption.
      assert (keq k0 k = true) by (apply keq_code; congruence). congruence.
Qed.

(* any sequence of puthash: gethash returns the value most recently stored  *)
(* under an eql key, nil otherwise                                           *)
Fixpoint puts (l : list (sx * sx)) (ops : list (sx * sx)) : res (list (sx * sx)) :=
  match ops with
  | [] => Ok l
  | (k, v) :: r => match ht_put l k v with Ok l' => puts l' r | e => e end
  end.

Fixpoint latest (ops : list (sx * sx)) (k : sx) : option sx :=
  match ops with
  | [] => None
  | (k', v) :: r => match latest r k with
                    | Some x => Some x
                    | None => if keq k' k then Some v else None
                    end
  end.

Theorem puts_spec : forall ops l0 l k, akeys l0 -> akeys ops -> akey k = true ->
  puts l0 ops = Ok l ->
  ht_find l k = match latest ops k with Some v => Ok v | None => ht_find l0 k end.
Proof.
  induction ops as [|[k' v] ops IH]; intros l0 l k Hl0 Hops Hk Hp; simpl in Hp.
  - inversion Hp. reflexivity.
  - inversion Hops as [|? ? Hk' Hops']; subst.
    destruct (ht_put_akeys l0 k' v Hl0 Hk') as (l1 & E1 & Hl1). rewrite E1 in Hp.
    rewrite (IH l1 l k Hl1 Hops' Hk Hp). simpl.
    destruct (latest ops k); [reflexivity|].
    rewrite (find_put l0 k' v k Hl0 Hk' Hk l1 E1). destruct (keq k' k); reflexivity.
Qed.

Theorem puts_total : forall ops l0, akeys l0 -> akeys ops -> exists l, puts l0 ops = Ok l.
Proof.
  induction ops as [|[k' v] ops IH]; intros l0 Hl0 Hops; simpl; [eauto|].
  inversion Hops as [|? ? Hk' Hops'].
  destruct (ht_put_akeys l0 k' v Hl0 Hk') as (l1 & E1 & Hl1). rewrite E1. apply IH; assumption.
Qed.
