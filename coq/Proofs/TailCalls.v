(* C04: what mark_tail_calls rewrites, and one iteration of the trampoline.   *)
From TL Require Import Base.Base Model.Reader Model.Printer Model.Store Model.Eval.
From TL Require Import Proofs.EvalRel.
Local Open Scope list_scope.

(* [mt_body name b b']: the body (a list of forms) b' is b with self-calls in   *)
(* TAIL POSITION replaced by the trampoline marker form (list Bounce . args);    *)
(* tail position = the last form of the body, and recursively the tail of a      *)
(* progn / let / let*, both branches of an if, the body of every cond clause.    *)
(* Everything else - in particular every self-call that is not in tail position  *)
(* - is unchanged.                                                               *)
Inductive mt_body (name : sx) : sx -> sx -> Prop :=
| mtb_same b : mt_body name b b
| mtb_last b init tail tail' :
    items b = init ++ [tail] -> mt_form name tail tail' ->
    mt_body name b (of_list (init ++ [tail']) Nil)
with mt_form (name : sx) : sx -> sx -> Prop :=
| mtf_same x : mt_form name x x
| mtf_self h args : sym_eq h name = true ->
    mt_form name (Cons h args) (Cons (Sym n_list) (Cons Bounce (nil_append args)))
| mtf_seq h rest rest' : mt_body name rest rest' ->       (* progn, let, let* *)
    mt_form name (Cons h rest) (Cons h rest')
| mtf_if h tcdr c r1 thn thn' els els' :
    car_of tcdr = Ok c -> cdr_of tcdr = Ok r1 -> car_of r1 = Ok thn -> cdr_of r1 = Ok els ->
    mt_form name thn thn' -> mt_body name els els' ->
    mt_form name (Cons h tcdr) (Cons h (Cons c (Cons thn' els')))
| mtf_cond h tcdr clauses' :
    Forall2 (fun cl cl' => exists c b b', car_of cl = Ok c /\ cdr_of cl = Ok b /\
                                          cl' = Cons c b' /\ mt_body name b b')
            (items tcdr) clauses' ->
    mt_form name (Cons h tcdr) (Cons h (of_list clauses' Nil)).

Lemma last_and_init_spec : forall l i t, last_and_init l = Some (i, t) -> l = i ++ [t].
Proof.
  induction l as [|x l IH]; intros i t H; [discriminate|].
  simpl in H. destruct l as [|y l].
  - inversion H. reflexivity.
  - destruct (last_and_init (y :: l)) as [[i' t']|] eqn:E; [|discriminate].
    inversion H; subst. rewrite (IH i' t eq_refl). reflexivity.
Qed.

Lemma mt_body_single name thn mt :
  mt_body name (Cons thn Nil) mt -> exists thn', car_of mt = Ok thn' /\ mt_form name thn thn'.
Proof.
  intros H. inversion H as [|? init tail tail' Hi Hf].
  - exists thn. split; [reflexivity|apply mtf_same].
  - destruct init as [|x init].
    + simpl in Hi. inversion Hi. exists tail'. split; [reflexivity|assumption].
    + inversion Hi as [[Hx Hr]]. destruct init; discriminate.
Qed.

(* wherever mark_tail gives its argument back *)
Lemma mtb_ok name b b' : Ok b = Ok b' -> mt_body name b b'.
Proof. intros [= <-]. apply mtb_same. Qed.

(* mark_tail rewrites only self-calls in tail position; mt_body is reflexive, so *)
(* that every one of them is rewritten is not claimed                           *)
Theorem mark_tail_spec : forall fuel name body body',
  mark_tail fuel name body = Ok body' -> mt_body name body body'.
Proof.
  induction fuel as [|fuel IH]; intros name body body' H; [discriminate|].
  cbn [mark_tail] in H.
  destruct body; try (apply mtb_ok; exact H).
  destruct (last_and_init (items (Cons body1 body2))) as [[init tail]|] eqn:El;
    [|apply mtb_ok; exact H].
  apply last_and_init_spec in El.
  destruct tail as [| | | | | | | |th tcdr| | | | | | | | | | |];
    try (apply mtb_ok; exact H).
  destruct (sym_name th) as [tn|]; [|apply mtb_ok; exact H].
  (* from here on only the last form changes *)
  assert (Hfin : forall tail', mt_form name (Cons th tcdr) tail' ->
            Ok (of_list (init ++ [tail']) Nil) = Ok body' -> mt_body name (Cons body1 body2) body').
  { intros tail' Hf [= <-]. eapply mtb_last; eassumption. }
  destruct (sym_eq th name) eqn:Eself.
  { eapply Hfin; [|exact H]. apply mtf_self, Eself. }
  destruct (text_eqb tn n_progn || text_eqb tn n_let || text_eqb tn n_letstar).
  { destruct (mark_tail fuel name tcdr) as [m|e|n|] eqn:Em; try discriminate.
    eapply Hfin; [|exact H]. apply mtf_seq, IH, Em. }
  destruct (text_eqb tn n_if).
  { destruct (cdr_of tcdr) as [r1|e|n|] eqn:E1; try discriminate.
    destruct (car_of tcdr) as [c|e|n|] eqn:E0; try discriminate;
    destruct (car_of r1) as [thn|e2|n2|] eqn:E2; try discriminate;
    destruct (cdr_of r1) as [els|e3|n3|] eqn:E3; try discriminate.
    destruct (mark_tail fuel name (Cons thn Nil)) as [mt|e4|n4|] eqn:Em; try discriminate.
    destruct (mt_body_single _ _ _ (IH _ _ _ Em)) as (thn' & Ec & Hf). rewrite Ec in H.
    destruct (mark_tail fuel name els) as [me|e6|n6|] eqn:Ee; try discriminate.
    eapply Hfin; [|exact H]. eapply mtf_if; eauto. }
  destruct (text_eqb tn n_cond); [|eapply Hfin; [apply mtf_same|exact H]].
  (* the clause loop is an anonymous fix: f, taken from H; it appends to acc the   *)
  (* rewritten clauses cl' of what is left, cs                                     *)
  match type of H with
  | ?f (items tcdr) [] = Ok body' =>
      assert (Hloop : forall cs acc, f cs acc = Ok body' ->
        exists cl', Ok (of_list (init ++ [Cons th (of_list (acc ++ cl') Nil)]) Nil) = Ok body' /\
          Forall2 (fun cl cl' => exists c b b', car_of cl = Ok c /\ cdr_of cl = Ok b /\
                                                cl' = Cons c b' /\ mt_body name b b') cs cl')
  end.
  { induction cs as [|c cs IHc]; intros acc Hr.
    - exists []. rewrite app_nil_r. split; [exact Hr|constructor].
    - destruct (car_of c) as [cond|e|n|] eqn:Ec; destruct (cdr_of c) as [cbody|e2|n2|] eqn:Ed;
        try discriminate.
      destruct (mark_tail fuel name cbody) as [mb|e3|n3|] eqn:Em; try discriminate.
      destruct (IHc _ Hr) as (cl' & E & HF). rewrite <- app_assoc in E.
      exists (Cons cond mb :: cl'). split; [exact E|].
      constructor; [|assumption]. exists cond, cbody, mb. repeat split; auto. }
  destruct (Hloop _ _ H) as (cl' & E & HF).
  eapply Hfin; [|exact E]. apply mtf_cond, HF.
Qed.

Section Tramp.
Variable F : fops.

Theorem marker_evaluates_arguments rec load args s :
  (forall s0, rec (TEval Bounce) s0 = (Ok Bounce, s0)) ->
  apply_prim F rec load PList (Cons Bounce args) s =
  bind (eval_each rec (items args)) (fun vs => ret (Cons Bounce (of_list vs Nil))) s.
Proof.
  intros Hb. cbn [apply_prim items eval_each]. unfold bind at 1 2. unfold ev. rewrite Hb.
  unfold bind. destruct (eval_each rec (items args) s) as [[vs|e|n|] s1]; reflexivity.
Qed.

Theorem marker_is_bounced vs : is_bounced (Cons Bounce (of_list vs Nil)) = true.
Proof. reflexivity. Qed.

(* [false]: the parameters are bound to the VALUES of the marker, not evaluated again *)
Theorem trampoline_iteration f ps body vals s :
  run F (S f) (TTramp ps body (Cons Bounce vals)) s =
  bind (eval_function (run F f) false ps body vals)
       (fun r' => run F f (TTramp ps body r')) s.
Proof. reflexivity. Qed.

Theorem trampoline_exit f ps body r s : is_bounced r = false ->
  run F (S f) (TTramp ps body r) s = (Ok r, s).
Proof.
  intros H. cbn [run step]. rewrite H. reflexivity.
Qed.

Theorem call_enters_trampoline f evalp ps body args s :
  run F (S f) (TCall evalp (Lam ps body) args) s =
  bind (eval_function (run F f) evalp ps body args)
       (fun r => run F f (TTramp ps body r)) s.
Proof. reflexivity. Qed.

Theorem trampoline_balanced f ps body r s r' s' :
  run F f (TTramp ps body r) s = (r', s') -> r' <> Fuel -> Inv s s' /\ np r'.
Proof. intros H Hr. apply (run_inv F f (TTramp ps body r) s r' s' H Hr I). Qed.

End Tramp.
