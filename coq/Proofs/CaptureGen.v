(* C05: the capture walk of `lambda` over ANY body - in particular a body    *)
(* that already contains cells of an enclosing closure (nested closures) or  *)
(* uninterned symbols.  One induction over the body; the theorem for bodies   *)
(* from program text (Capture.v) is its instance, at the end.                 *)
From TL Require Import Base.Base Model.Reader Model.Printer Model.Store Model.Eval.
From TL Require Import Proofs.Equality Proofs.Closures Proofs.Walks Proofs.Capture.
Local Open Scope nat_scope.
Local Open Scope list_scope.

(* P holds of every symbol occurrence of x, wherever the walk goes *)
Fixpoint each_sym (P : sx -> Prop) (x : sx) : Prop :=
  match x with
  | Sym _ | USym _ _ | Cell _ _ _ => P x
  | Cons a d => each_sym P a /\ each_sym P d
  | Quote v | Bq v | Unq v | Splice v | Sharp v => each_sym P v
  | _ => True
  end.

Section CaptureGen.
Variable s : st.                 (* the state in which the lambda is created *)
Variable excl : list sx.         (* its parameters *)

(* the objects of the body exist in s: serials of uninterned symbols and of   *)
(* cells are below the next serial, and every cell holds a value              *)
Fixpoint ok (x : sx) : Prop :=
  match x with
  | USym _ i => (i < next_id s)%positive
  | Cell _ i _ => (i < next_id s)%positive /\ bitems (sget s (key_of_id i)) <> []
  | Cons a d => ok a /\ ok d
  | Quote v | Bq v | Unq v | Splice v | Sharp v => ok v
  | _ => True
  end.

(* locally bound at creation: a cell always is *)
Definition lexb (x : sx) : bool :=
  match x with
  | Cell _ _ _ => true
  | _ => match key_of x with None => false | Some k => b_lex_bound (sget s k) end
  end.
Definition capt (x : sx) : bool := lexb x && negb (in_excl excl x).

(* the body with every capturable symbol occurrence replaced by its cell *)
Fixpoint gsubst (caps : cap_list) (x : sx) : sx :=
  match x with
  | Sym _ | USym _ _ | Cell _ _ _ =>
      if capt x then match find_cap caps x with Some c => c | None => x end else x
  | Cons a d => Cons (gsubst caps a) (gsubst caps d)
  | Quote v => Quote (gsubst caps v) | Bq v => Bq (gsubst caps v)
  | Unq v => Unq (gsubst caps v) | Splice v => Splice (gsubst caps v)
  | Sharp v => Sharp (gsubst caps v)
  | o => o
  end.

(* keys that exist in s: not the slot of a serial handed out later *)
Definition old (k : key) : Prop := forall i, (next_id s <= i)%positive -> k <> key_of_id i.

(* st is s at every old key; implies Capture.name_agree *)
Definition agree (st : st) : Prop :=
  (next_id s <= next_id st)%positive /\ forall k, old k -> sget st k = sget s k.

(* every entry of the capture list: a capturable symbol occurrence and a NEW  *)
(* cell for it, with the root of what it was made from                        *)
Definition gcaps_ok (caps : cap_list) : Prop :=
  Forall (fun p => symbolp (fst p) = true /\ capt (fst p) = true /\
                   exists nm id, snd p = Cell nm id (cell_root (fst p)) /\
                                 (next_id s <= id)%positive) caps.

(* Capture.closed, uninterned symbols and cells counted as occurrences *)
Fixpoint gclosed (caps : cap_list) (x : sx) : Prop :=
  match x with
  | Sym _ | USym _ _ | Cell _ _ _ => capt x = true -> find_cap caps x <> None
  | Cons a d => gclosed caps a /\ gclosed caps d
  | Quote v | Bq v | Unq v | Splice v | Sharp v => gclosed caps v
  | _ => True
  end.

Lemma gsubst_ext caps more : forall x, gclosed caps x -> gsubst (caps ++ more) x = gsubst caps x.
Proof.
  induction x; cbn [gsubst gclosed]; intros Hc; try reflexivity;
    try (rewrite IHx by assumption; reflexivity);
    try (destruct (capt _); [rewrite find_cap_stable by auto|]; reflexivity).
  destruct Hc as [C1 C2]. rewrite IHx1, IHx2 by assumption. reflexivity.
Qed.

Lemma gclosed_ext caps more : forall x, gclosed caps x -> gclosed (caps ++ more) x.
Proof.
  induction x; auto; try (intros H Hc; rewrite find_cap_stable; auto).
  intros [H1 H2]. split; auto.
Qed.

Lemma gcaps_ok_app a b : gcaps_ok a -> gcaps_ok b -> gcaps_ok (a ++ b).
Proof. intros. apply Forall_app. split; assumption. Qed.

Lemma key_old x k : ok x -> key_of x = Some k -> old k.
Proof.
  intros Ho Hk i Hi. destruct x; try discriminate Hk; inversion Hk; subst k.
  - apply name_key_not_cell_key.
  - cbn [ok] in Ho. intros E. inversion E. subst. lia.
  - destruct Ho as [Ho _]. intros E. inversion E. subst. lia.
Qed.

(* what the walk reads of a symbol of the body is as in s, whatever cells it made *)
Lemma agree_lex_bound x st0 : symbolp x = true -> ok x -> agree st0 ->
  lex_bound x st0 = (Ok (lexb x), st0).
Proof.
  intros Hsym Hok [_ Ha]. unfold lex_bound, lexb.
  destruct x; try discriminate Hsym; try reflexivity; cbn [key_of];
    rewrite (Ha _ (key_old _ _ Hok eq_refl)); reflexivity.
Qed.

Lemma agree_sym_get x st0 : symbolp x = true -> ok x -> agree st0 -> lexb x = true ->
  exists v, sym_get x st0 = (Ok v, st0).
Proof.
  intros Hsym Hok [_ Ha] Elb. unfold sym_get.
  destruct (key_of x) as [k|] eqn:Hk; [|destruct x; discriminate].
  destruct (keywordp x); [eexists; reflexivity|]. rewrite (Ha k (key_old x k Hok Hk)).
  assert (Hne : bitems (sget s k) <> []).
  { destruct x; try discriminate Hsym; injection Hk as <-;
      [exact (lex_bound_has_value _ Elb)|exact (lex_bound_has_value _ Elb)|apply Hok]. }
  destruct (bitems (sget s k)); [congruence|eexists; reflexivity].
Qed.

Lemma agree_new_cell st0 b : agree st0 ->
  agree (sput (bump_id st0) (key_of_id (next_id st0)) b).
Proof.
  intros [Hle Ha]. split; [cbn [next_id sput bump_id]; lia|].
  intros k Hk. rewrite sget_sput_other by (apply not_eq_sym, Hk, Hle). apply Ha, Hk.
Qed.

Lemma gsubst_symbol caps x : symbolp x = true ->
  gsubst caps x = if capt x then match find_cap caps x with Some c => c | None => x end else x.
Proof. destruct x; try discriminate; reflexivity. Qed.

Lemma gclosed_symbol caps x : symbolp x = true ->
  gclosed caps x = (capt x = true -> find_cap caps x <> None).
Proof. destruct x; try discriminate; reflexivity. Qed.

Section Walk.
(* what is known of every symbol occurrence of the body *)
Variable P : sx -> Prop.
Hypothesis P_ok : forall y, P y -> ok y.

(* an entry of the capture list as the walk makes it: a capturable occurrence *)
(* of the body and its cell (cell_for), with a serial not handed out in s      *)
Definition made (p : sx * sx) : Prop :=
  symbolp (fst p) = true /\ P (fst p) /\ capt (fst p) = true /\
  exists id, snd p = cell_for (fst p) id /\ (next_id s <= id)%positive.

(* the walk of x from caps extends caps by entries so made and returns x with the *)
(* cells of the extended list put in; every capturable occurrence of x has one    *)
Definition wpost (caps : cap_list) (x : sx) (r : res (sx * cap_list) * st) : Prop :=
  exists caps2 st2, r = (Ok (gsubst (caps ++ caps2) x, caps ++ caps2), st2) /\
                    agree st2 /\ Forall made caps2 /\ gclosed (caps ++ caps2) x.

Lemma wpost_ret caps x x' st0 : agree st0 -> gsubst caps x = x' -> gclosed caps x ->
  wpost caps x (Ok (x', caps), st0).
Proof. intros Ha <- Hc. exists [], st0. rewrite app_nil_r. auto. Qed.

(* the five quote marks in one: what is asked of mk holds of each by computation *)
Lemma walk_mark (mk : sx -> sx) caps v st0 :
  capture excl caps (mk v) = ('(v', c) <- capture excl caps v ;; ret (mk v', c)) ->
  (forall c, gsubst c (mk v) = mk (gsubst c v)) -> (forall c, gclosed c (mk v) = gclosed c v) ->
  wpost caps v (capture excl caps v st0) -> wpost caps (mk v) (capture excl caps (mk v) st0).
Proof.
  intros -> Hs Hc (c2 & s2 & E & A & M & C). unfold bind. rewrite E.
  exists c2, s2. rewrite Hs, Hc. auto.
Qed.

Lemma walk_symbol x caps st0 : symbolp x = true -> P x -> agree st0 ->
  wpost caps x (capture excl caps x st0).
Proof.
  intros Hsym HP Hag. pose proof (P_ok x HP) as Hok.
  replace (capture excl caps x) with (capture_symbol excl caps x)
    by (destruct x; try discriminate Hsym; reflexivity).
  pose proof (agree_lex_bound x st0 Hsym Hok Hag) as Hlb.
  destruct (capt x) eqn:Hcap.
  2:{ rewrite (capture_symbol_skip _ _ _ _ _ Hlb Hcap). apply wpost_ret; [assumption| |].
      - rewrite gsubst_symbol, Hcap by assumption. reflexivity.
      - rewrite gclosed_symbol, Hcap by assumption. discriminate. }
  destruct (andb_prop _ _ Hcap) as [Elb Eex]. rewrite Elb in Hlb. apply negb_true_iff in Eex.
  destruct (find_cap caps x) as [c|] eqn:Ef.
  { rewrite (capture_symbol_again _ _ _ _ _ Hlb Eex Ef). apply wpost_ret; [assumption| |].
    - rewrite gsubst_symbol, Hcap, Ef by assumption. reflexivity.
    - rewrite gclosed_symbol, Ef by assumption. discriminate. }
  (* a new cell *)
  destruct (agree_sym_get x st0 Hsym Hok Hag Elb) as [v Hv].
  exists [(x, cell_for x (next_id st0))]. eexists.
  rewrite (capture_symbol_fresh _ _ _ _ _ Hlb Eex Ef Hv), gsubst_symbol, gclosed_symbol, Hcap,
    find_cap_app, Ef by assumption.
  cbn [find_cap]. rewrite (sym_eq_refl x Hsym).
  split; [reflexivity|]. split; [apply agree_new_cell, Hag|]. split; [|discriminate].
  constructor; [|constructor]. repeat split; auto. exists (next_id st0). split; [reflexivity|apply Hag].
Qed.

(* the cdr is walked from what the car left; the cells put into the car stay *)
(* the cells when the list grows (gsubst_ext)                                 *)
Lemma walk_cons a d caps st0 :
  (forall caps st0, agree st0 -> wpost caps a (capture excl caps a st0)) ->
  (forall caps st0, agree st0 -> wpost caps d (capture excl caps d st0)) ->
  agree st0 -> wpost caps (Cons a d) (capture excl caps (Cons a d) st0).
Proof.
  intros Ha Hd Hi. rewrite capture_cons_eq. unfold bind.
  destruct (Ha caps st0 Hi) as (c1 & s1 & E1 & A1 & M1 & C1). rewrite E1.
  destruct (Hd (caps ++ c1) s1 A1) as (c2 & s2 & E2 & A2 & M2 & C2). rewrite E2.
  exists (c1 ++ c2), s2. rewrite app_assoc. cbn [gsubst gclosed].
  rewrite (gsubst_ext _ c2 a C1).
  assert (M : Forall made (c1 ++ c2)) by (apply Forall_app; auto).
  split; [reflexivity|]. auto using gclosed_ext.
Qed.

Lemma walk_ok : forall x, each_sym P x ->
  forall caps st0, agree st0 -> wpost caps x (capture excl caps x st0).
Proof.
  induction x; intros HP caps st0 Hi;
    (* Cons *)
    try (destruct HP; simple apply walk_cons; solve [auto]);
    (* Quote, Bq, Unq, Splice, Sharp *)
    try (simple apply walk_mark; [reflexivity|reflexivity|reflexivity|apply IHx; assumption]);
    (* Sym, USym, Cell *)
    try (simple apply walk_symbol; [reflexivity|assumption|assumption]);
    (* every other object is returned as it is *)
    (apply wpost_ret; [assumption|reflexivity|exact I]).
Qed.

End Walk.
End CaptureGen.

Theorem capture_walk s excl (P : sx -> Prop) body :
  (forall y, P y -> ok s y) -> each_sym P body ->
  exists caps s2,
    capture excl [] body s = (Ok (gsubst s excl caps body, caps), s2) /\
    agree s s2 /\ Forall (made s excl P) caps /\ gclosed s excl caps body.
Proof.
  intros HP Hb.
  destruct (walk_ok s excl P HP body Hb [] s) as (c2 & s2 & E & Ha & Hm & C).
  - split; [lia|intros k _; reflexivity].
  - exists c2, s2. auto.
Qed.

Lemma made_gcaps_ok s excl (P : sx -> Prop) caps : Forall (made s excl P) caps -> gcaps_ok s excl caps.
Proof.
  apply Forall_impl. intros p (Hs & _ & Hc & id & Hp & Hid).
  split; [assumption|split; [assumption|]]. eexists _, id. split; [exact Hp|exact Hid].
Qed.

Lemma ok_each s : forall x, ok s x -> each_sym (ok s) x.
Proof. induction x; cbn [ok each_sym]; intuition. Qed.

Theorem capture_any_body s excl body :
  ok s body ->
  exists caps s2,
    capture excl [] body s = (Ok (gsubst s excl caps body, caps), s2) /\
    agree s s2 /\ gcaps_ok s excl caps /\ gclosed s excl caps body.
Proof.
  intros Ho.
  destruct (capture_walk s excl (ok s) body (fun _ H => H) (ok_each s body Ho))
    as (caps & s2 & E & Ha & Hm & C).
  exists caps, s2. eauto using made_gcaps_ok.
Qed.

Lemma find_cap_in caps x c : find_cap caps x = Some c ->
  exists from, In (from, c) caps /\ sym_eq x from = true.
Proof.
  induction caps as [|[from to] caps IH]; cbn [find_cap]; [discriminate|].
  destruct (sym_eq x from) eqn:E.
  - intros H. inversion H. exists from. split; [left; reflexivity|assumption].
  - intros H. destruct (IH H) as (f & Hin & He). exists f. split; [right; assumption|assumption].
Qed.

Theorem outer_cell_recaptured s excl caps n i r :
  gcaps_ok s excl caps -> gclosed s excl caps (Cell n i r) -> in_excl excl (Cell n i r) = false ->
  exists from nm id,
    gsubst s excl caps (Cell n i r) = Cell nm id (cell_root from) /\
    In (from, Cell nm id (cell_root from)) caps /\ sym_eq (Cell n i r) from = true /\
    (next_id s <= id)%positive.
Proof.
  intros Hok Hc Hex. cbn [gsubst gclosed] in *.
  assert (Hcap : capt s excl (Cell n i r) = true) by (unfold capt; rewrite Hex; reflexivity).
  rewrite Hcap. specialize (Hc Hcap).
  destruct (find_cap caps (Cell n i r)) as [c|] eqn:E; [|congruence].
  destruct (find_cap_in _ _ _ E) as (from & Hin & He).
  unfold gcaps_ok in Hok. rewrite Forall_forall in Hok. destruct (Hok _ Hin) as (_ & _ & nm & id & Hs & Hle).
  cbn [fst snd] in Hs. subst c. exists from, nm, id. auto.
Qed.

Theorem not_capt_untouched s excl caps x :
  symbolp x = true -> capt s excl x = false -> gsubst s excl caps x = x.
Proof. intros Hs Hc. rewrite gsubst_symbol, Hc by assumption. reflexivity. Qed.

(* on bodies from program text the general walk is the walk of Capture.v *)
Theorem gsubst_on_text_bodies s excl caps : forall x,
  only_syms x = true -> caps_ok s excl caps -> gsubst s excl caps x = subst caps x.
Proof.
  intros x Ho Hok. induction x; simpl in Ho; try discriminate Ho; cbn [gsubst subst]; try reflexivity;
    try (rewrite IHx by assumption; reflexivity).
  - destruct (capt s excl (Sym n)) eqn:Ec; [reflexivity|].
    destruct (find_cap caps (Sym n)) eqn:E; [|reflexivity].
    destruct (find_cap_ok s excl _ _ _ Hok E) as [Hc _]. unfold capturable in Hc.
    unfold capt, lexb in Ec. cbn [key_of] in Ec. congruence.
  - apply andb_true_iff in Ho as [H1 H2]. rewrite IHx1, IHx2 by assumption. reflexivity.
Qed.

Lemma gclosed_on_text_bodies s excl caps : forall x,
  only_syms x = true -> gclosed s excl caps x -> closed s excl caps x.
Proof.
  induction x; simpl; try discriminate; auto.
  intros Ho [C1 C2]. apply andb_true_iff in Ho as [H1 H2]. auto.
Qed.

Lemma only_syms_each : forall x, only_syms x = true -> each_sym (fun y => exists n, y = Sym n) x.
Proof.
  induction x; simpl; try discriminate; eauto.
  intros Ho. apply andb_true_iff in Ho as [H1 H2]. auto.
Qed.

(* the general walk, whose occurrences are now all interned symbols: so are the *)
(* keys of the capture list, and the cells are theirs                            *)
Theorem capture_whole_body s excl body :
  only_syms body = true ->
  exists caps s2,
    capture excl [] body s = (Ok (subst caps body, caps), s2) /\
    name_agree s s2 /\ caps_ok s excl caps /\ closed s excl caps body.
Proof.
  intros Ho.
  destruct (capture_walk s excl (fun y => exists n, y = Sym n) body)
    as (caps & s2 & E & [_ Ha] & Hm & C).
  { intros y [n ->]. exact I. }
  { apply only_syms_each, Ho. }
  assert (Hok : caps_ok s excl caps).
  { eapply Forall_impl; [|exact Hm]. intros [x c] (_ & [n ->] & Hc & id & -> & _). exists n, id. auto. }
  exists caps, s2. rewrite <- (gsubst_on_text_bodies s excl caps body Ho Hok).
  repeat split; auto using gclosed_on_text_bodies.
  intros n. apply Ha. intros i _. apply name_key_not_cell_key.
Qed.
