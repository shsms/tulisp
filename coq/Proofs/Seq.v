(* C20: the object-level list operations refine a sequence model.  [lrep h i l]: *)
(* object i is a proper list whose elements are the objects l, in order.          *)
From TL Require Import Base.Base Model.Reader Model.Printer Model.Api.
From TL Require Import Proofs.Heap Proofs.Build.
Local Open Scope positive_scope.
Local Open Scope list_scope.
Local Opaque halloc.

Inductive lrep (h : heap) : positive -> list positive -> Prop :=
| lrep_nil i : hget h i = HNil -> i < hnext h -> lrep h i []
| lrep_cons i a d l : hget h i = HCons a d -> lrep h d l -> lrep h i (a :: l).

Lemma lrep_inv h i l : lrep h i l ->
  match hget h i with
  | HNil => l = []
  | HCons a d => exists l0, l = a :: l0 /\ lrep h d l0
  | _ => False
  end.
Proof. destruct 1 as [i E L|i a d l E H]; rewrite E; eauto. Qed.

Lemma lrep_fun h i l1 : lrep h i l1 -> forall l2, lrep h i l2 -> l1 = l2.
Proof.
  induction 1 as [i E L|i a d l E _ IH]; intros l2 H2; apply lrep_inv in H2; rewrite E in H2.
  - congruence.
  - destruct H2 as (l0 & -> & H2). f_equal. apply IH, H2.
Qed.

Lemma lrep_bound h i l : wfh h -> lrep h i l -> i < hnext h.
Proof. intros W H. destruct H; [assumption|]. apply wfh_nonnil; [exact W|congruence]. Qed.

Lemma lrep_frame h h' i l : lrep h i l -> wfh h -> extends h h' -> lrep h' i l.
Proof.
  intros H W [S N _]. induction H as [i E L|i a d l E H IH].
  - apply lrep_nil; [rewrite (S i L); exact E|lia].
  - assert (Li : i < hnext h) by (apply wfh_nonnil; [exact W|congruence]).
    eapply lrep_cons; [rewrite (S i Li); exact E|exact IH].
Qed.

Lemma nil_is_nil h : lrep (fst (halloc h HNil)) (hnext h) [].
Proof. apply lrep_nil; [apply hget_halloc_new|rewrite hnext_halloc; lia]. Qed.

Theorem cons_is_cons h a d l : wfh h -> lrep h d l ->
  lrep (fst (halloc h (HCons a d))) (hnext h) (a :: l).
Proof.
  intros W H. eapply lrep_cons; [apply hget_halloc_new|].
  apply (lrep_frame h); [exact H|exact W|apply extends_alloc].
Qed.

Theorem car_cdr_of_cons h i a l : lrep h i (a :: l) ->
  h_car h i = Ok (h, a) /\ exists d, h_cdr h i = Ok (h, d) /\ lrep h d l.
Proof.
  intros H. apply lrep_inv in H. unfold h_car, h_cdr.
  destruct (hget h i); try contradiction; [discriminate|].
  destruct H as (l0 & E & H). injection E as <- <-. eauto.
Qed.

Lemma lrep_fresh_frame h m w val : forall i l, lrep h i l -> FC h m i -> w < m ->
  lrep (hset h w val) i l.
Proof.
  intros i l H. induction H as [i E L|i a d l E H IH]; intros F Hw.
  - pose proof (FC_nil _ _ _ E F) as B.
    apply lrep_nil; [rewrite hget_hset_other by lia; exact E|exact L].
  - destruct (FC_cons _ _ _ _ _ E F) as [B Fd].
    eapply lrep_cons; [rewrite hget_hset_other by lia; exact E|apply IH; assumption].
Qed.

Lemma lrep_set_cons h m w x y l : lrep h y l -> FC h m y -> w < m ->
  lrep (hset h w (HCons x y)) w (x :: l).
Proof.
  intros H F Hw. eapply lrep_cons; [apply hget_hset_same|]. apply lrep_fresh_frame with m; assumption.
Qed.

(* A list is cut at a cell w of its spine.  What hangs at w may then be replaced by   *)
(* writing w alone: the list is finite, so the front part l0 does not come back to w. *)
Lemma lrep_split h a w l : wfh h -> lrep h a l -> cdrs h a w ->
  exists l0 lw, l = l0 ++ lw /\ lrep h w lw /\
    forall h' lw', written_one (hnext h) w h h' -> lrep h' w lw' -> lrep h' a (l0 ++ lw').
Proof.
  intros W H P. revert l H. induction P as [i|i x d t E _ IH]; intros l H.
  - exists [], l. auto.
  - pose proof (lrep_inv _ _ _ H) as Hi. rewrite E in Hi. destruct Hi as (ld & -> & Hd).
    destruct (IH _ Hd) as (l0 & lw & -> & Rw & K). exists (x :: l0), lw.
    split; [reflexivity|]. split; [exact Rw|]. intros h' lw' Hw R.
    assert (Ne : i <> t).
    { intros <-. pose proof (f_equal (@List.length _) (lrep_fun _ _ _ H _ Rw)) as Q.
      simpl in Q. rewrite app_length in Q. lia. }
    eapply lrep_cons; [rewrite (Hw i (lrep_bound _ _ _ W H) Ne); exact E|]. apply K; assumption.
Qed.

Theorem push_appends h a v l h' : wfh h -> lrep h a l -> h_push h a v = Ok h' ->
  lrep h' a (l ++ [v]) /\ wfh h'.
Proof.
  intros W H Hp. destruct (push_spec _ _ _ _ Hp) as (last & Pl & El & ->).
  destruct (lrep_split _ _ _ _ W H Pl) as (l0 & lw & -> & Rw & K).
  pose proof (lrep_bound _ _ _ W Rw) as Ll.
  apply lrep_inv in Rw. rewrite El in Rw. subst lw. rewrite app_nil_r.
  split; [|apply wfh_set; [apply wfh_alloc, W|rewrite hnext_halloc; lia]].
  apply K; [apply extends_set, extends_alloc|].
  apply lrep_set_cons with (hnext h); [apply nil_is_nil|apply FC_alloc; [exact W|lia|exact I]|exact Ll].
Qed.

(* deep_copy's relation of an element x to its copy x': x itself, or a new cell with x's cons *)
Definition ecopy (h' : heap) (x x' : positive) : Prop :=
  x' = x \/ exists p q, hget h' x = HCons p q /\ hget h' x' = HCons p q.

(* the element relation only reads cons cells *)
Lemma ecopy_agree h h' l l' : (forall c p q, hget h c = HCons p q -> hget h' c = HCons p q) ->
  Forall2 (ecopy h) l l' -> Forall2 (ecopy h') l l'.
Proof.
  intros A F. induction F as [|x x' lx lx' Hx _ IHF]; constructor; [|exact IHF].
  destruct Hx as [->|(p & q & E1 & E2)]; [left; reflexivity|]. right. exists p, q. auto.
Qed.

Lemma ecopy_frame h2 h3 l l' : wfh h2 -> extends h2 h3 ->
  Forall2 (ecopy h2) l l' -> Forall2 (ecopy h3) l l'.
Proof.
  intros W2 [S3 _ _]. apply ecopy_agree. intros c p q E.
  rewrite S3; [exact E|]. apply wfh_nonnil; [exact W2|congruence].
Qed.

Lemma ecopy_set h w val l l' : (forall p q, hget h w <> HCons p q) ->
  Forall2 (ecopy h) l l' -> Forall2 (ecopy (hset h w val)) l l'.
Proof.
  intros Hw. apply ecopy_agree. intros c p q E.
  rewrite hget_hset_other; [exact E|]. intros ->. exact (Hw _ _ E).
Qed.

Lemma copy_head_ecopy h a h1 a' hz : copy_head h a = (h1, a') -> wfh h -> extends h1 hz ->
  ecopy hz a a'.
Proof.
  unfold copy_head. intros H W. destruct (hget h a) as [| | | | | |x y] eqn:Ea.
  1-6: injection H as _ <-; left; reflexivity.
  rewrite halloc_eq in H. injection H as <- <-. intros [S _ _]. rewrite hnext_halloc in S.
  assert (La : a < hnext h) by (apply wfh_nonnil; [exact W|congruence]).
  right. exists x, y. rewrite !S by lia. rewrite hget_halloc_new.
  rewrite (ext_below _ _ (extends_alloc h _)) by exact La. auto.
Qed.

Lemma copied_seq h i h' r : copied h i h' r -> forall l, wfh h -> lrep h i l ->
  exists l', lrep h' r l' /\ Forall2 (ecopy h') l l' /\ hnext h <= r.
Proof.
  induction 1 as [h i n E|h i v E Hv|h i a d h1 a' h2 t E Eh C IH]; intros l W R.
  all: apply lrep_inv in R; rewrite E in R.
  - contradiction.
  - destruct v; try contradiction. subst l. exists [].
    split; [apply nil_is_nil|]. split; [constructor|lia].
  - destruct R as (l0 & -> & Rd).
    pose proof (copy_head_extends _ _ _ _ Eh) as X1. pose proof (wfh_extends _ _ W X1) as W1.
    pose proof (copied_extends _ _ _ _ C) as X2. pose proof (wfh_extends _ _ W1 X2) as W2.
    pose proof (extends_alloc h2 (HCons a' t)) as X3.
    destruct (IH l0 W1 (lrep_frame _ _ _ _ Rd W X1)) as (l' & R' & F' & _).
    exists (a' :: l'). split; [apply cons_is_cons; assumption|]. split.
    + constructor; [|eapply ecopy_frame; eassumption].
      apply (copy_head_ecopy _ _ _ _ _ Eh W). eapply extends_trans; eassumption.
    + pose proof (ext_next _ _ X1). pose proof (ext_next _ _ X2). lia.
Qed.

Lemma deep_copy_seq h v l2 h1 c : wfh h -> lrep h v l2 -> h_deep_copy h v = Ok (h1, c) ->
  exists l2', lrep h1 c l2' /\ Forall2 (ecopy h1) l2 l2' /\ hnext h <= c.
Proof. intros W R H. apply (copied_seq h v); [apply deep_copy_spec, H|exact W|exact R]. Qed.

Theorem append_concatenates h a v l1 l2 h' : wfh h -> lrep h a l1 -> lrep h v l2 ->
  h_append h a v = Ok h' ->
  exists h1 l2', same_below (hnext h) h h1 /\ Forall2 (ecopy h1) l2 l2' /\
                 lrep h' a (l1 ++ l2') /\ wfh h'.
Proof.
  intros W Ha Hv Hp. pose proof (lrep_bound _ _ _ W Ha) as La.
  pose proof (lrep_inv _ _ _ Ha) as Ia. pose proof (lrep_inv _ _ _ Hv) as Iv.
  destruct (append_spec _ _ _ _ Hp)
    as [Ea Ev|h1 c x y Ea Ev Ec E0|h1 c Ea Ev Ec N0|h1 c w x last x' Pw Ew El Ec Hx].
  { rewrite Ea in Ia. rewrite Ev in Iv. subst l1 l2. exists h, [].
    split; [apply same_below_refl|]. split; [constructor|]. split; [exact Ha|exact W]. }
  all: destruct (deep_copy_seq _ _ _ _ _ W Hv Ec) as (l2' & Rc & F2 & _).
  all: destruct (deep_copy_chain _ _ _ _ Ec W) as (W1 & X1 & F1); pose proof (ext_next _ _ X1) as N1.
  all: exists h1, l2'; split; [exact (ext_below _ _ X1)|]; split; [exact F2|].
  - (* appends_fill *)
    rewrite Ea in Ia. subst l1. split; [|apply wfh_set; [exact W1|lia]].
    apply lrep_inv in Rc. rewrite E0 in Rc. destruct Rc as (ly & -> & Ry).
    apply lrep_set_cons with (hnext h); [exact Ry|apply (FC_cons _ _ _ _ _ E0 F1)|exact La].
  - (* the copy of a list with elements is not an atom *)
    exfalso. destruct Rc as [c E0 _|c x y ly E0 _]; [|exact (N0 _ _ E0)].
    inversion F2; subst l2. destruct (hget h v); try contradiction.
    destruct Iv as (l0 & Q & _). discriminate.
  - (* appends_link *)
    destruct (lrep_split _ _ _ _ W Ha Pw) as (l0 & lw & -> & Rw & K).
    pose proof (lrep_bound _ _ _ W Rw) as Lw.
    rewrite Hx by (apply (ext_below _ _ X1), Lw).
    apply lrep_inv in Rw. rewrite Ew in Rw. destruct Rw as (ll & -> & Rl).
    apply lrep_inv in Rl. rewrite El in Rl. subst ll.
    split; [|apply wfh_set; [exact W1|lia]].
    rewrite <- app_assoc. apply K; [apply extends_set, X1|].
    apply lrep_set_cons with (hnext h); assumption.
Qed.

Lemma bfold_pushes a : forall vs h l h', wfh h -> lrep h a l ->
  bfold a h (map BPush vs) = Ok h' -> lrep h' a (l ++ vs) /\ wfh h'.
Proof.
  induction vs as [|v vs IH]; intros h l h' W H Hb; simpl in Hb.
  - inversion Hb; subst. rewrite app_nil_r. auto.
  - destruct (h_push h a v) as [h1|e|k|] eqn:Ep; try discriminate.
    destruct (push_appends _ _ _ _ _ W H Ep) as [H1 W1].
    destruct (IH h1 (l ++ [v]) h' W1 H1 Hb) as [H2 W2]. rewrite <- app_assoc in H2. auto.
Qed.

(* ctx.map / ctx.filter / eval_each / list: a new empty list, one push per result *)
Theorem build_pushes h vs h' a : wfh h -> build h (map BPush vs) = Ok (h', a) -> lrep h' a vs.
Proof.
  intros W H. unfold build in H.
  destruct (bfold (hnext h) (fst (halloc h HNil)) (map BPush vs)) as [hh|e|k|] eqn:E; try discriminate.
  injection H as <- <-. apply (bfold_pushes _ vs _ [] _ (wfh_alloc _ _ W) (nil_is_nil h) E).
Qed.

(* The fuel hsize h that the model gives walk_last suffices on a proper list: the cells *)
(* of its spine are distinct and below hnext, so it is shorter than hnext (lrep_short),  *)
(* and with more fuel than its length the walk reaches the terminator (walk_last_lends). *)
(* Nothing above needs this: every theorem there assumes that the operation returned Ok. *)
Fixpoint spine_cells (h : heap) (i : positive) (n : nat) : list positive :=
  match n with
  | O => []
  | S n' => i :: match hget h i with HCons _ d => spine_cells h d n' | _ => [] end
  end.

Lemma lrep_cells h i l : wfh h -> lrep h i l ->
  let cs := spine_cells h i (List.length l) in
  List.length cs = List.length l /\ Forall (fun c => c < hnext h) cs /\
  (forall c, In c cs -> exists l', lrep h c l' /\ (0 < List.length l' <= List.length l)%nat) /\ NoDup cs.
Proof.
  intros W H. induction H as [i E L|i a d l E H IH]; simpl.
  - split; [reflexivity|]. split; [constructor|]. split; [intros c []|constructor].
  - rewrite E. destruct IH as (I1 & I2 & I3 & I4).
    assert (Li : i < hnext h) by (apply wfh_nonnil; [exact W|congruence]).
    split; [rewrite I1; reflexivity|]. split; [constructor; assumption|].
    split.
    + intros c [<-|Hc]; [exists (a :: l); split; [eapply lrep_cons; eassumption|simpl; lia]|].
      destruct (I3 c Hc) as (l' & R & B). exists l'. split; [exact R|simpl; lia].
    + constructor; [|exact I4]. intros Hin. destruct (I3 i Hin) as (l' & R & B).
      assert (l' = a :: l) by (eapply lrep_fun; [exact R|eapply lrep_cons; eassumption]).
      subst. simpl in B. lia.
Qed.

Lemma nodup_bounded (cs : list positive) n : NoDup cs -> Forall (fun c => c < n) cs ->
  (List.length cs < Pos.to_nat n)%nat.
Proof.
  intros ND B.
  assert (I : incl (map Pos.to_nat cs) (seq 1 (Pos.to_nat n - 1))).
  { intros x Hx. apply in_map_iff in Hx as (c & <- & Hc). rewrite Forall_forall in B. specialize (B c Hc).
    apply in_seq. lia. }
  assert (ND' : NoDup (map Pos.to_nat cs)).
  { clear -ND. induction ND; simpl; constructor; [|assumption].
    intros Hin. apply in_map_iff in Hin as (y & E & Hy). apply Pos2Nat.inj in E. subst. contradiction. }
  pose proof (NoDup_incl_length ND' I) as Hl. rewrite map_length, seq_length in Hl. lia.
Qed.

Lemma lrep_short h i l : wfh h -> lrep h i l -> (List.length l < Pos.to_nat (hnext h))%nat.
Proof.
  intros W H. destruct (lrep_cells h i l W H) as (L & B & _ & ND). rewrite <- L.
  apply nodup_bounded; assumption.
Qed.

(* the same with the terminating empty-list object named *)
Inductive lends (h : heap) : positive -> list positive -> positive -> Prop :=
| lends_nil i : hget h i = HNil -> i < hnext h -> lends h i [] i
| lends_cons i a d l last : hget h i = HCons a d -> lends h d l last -> lends h i (a :: l) last.

Lemma lends_lrep h i l last : lends h i l last -> lrep h i l.
Proof. induction 1; [apply lrep_nil|eapply lrep_cons]; eassumption. Qed.
Lemma lrep_lends h i l : lrep h i l -> exists last, lends h i l last.
Proof.
  induction 1 as [i E L|i a d l E _ [last IH]]; [exists i; apply lends_nil; assumption|].
  exists last. eapply lends_cons; eassumption.
Qed.
Lemma lends_last h i l last : lends h i l last -> hget h last = HNil /\ last < hnext h.
Proof. induction 1; auto. Qed.

Lemma walk_last_lends : forall f h d l last prev, lends h d l last -> (List.length l < f)%nat ->
  exists lbo, walk_last f h d prev = Ok (last, lbo).
Proof.
  induction f as [|f IH]; intros h d l last prev H Hf; [lia|].
  destruct H as [i E L|i a d' l last E H].
  - exists prev. simpl. rewrite E. reflexivity.
  - simpl. rewrite E. apply (IH h d' l last (Some i) H). simpl in Hf. lia.
Qed.

