(* C06: macro expansion in Model/Eval.v. *)
From TL Require Import Base.Base Model.Reader Model.Printer Model.Store Model.Eval.
From TL Require Import Proofs.Lists Proofs.Walks.
Local Open Scope nat_scope.
Local Open Scope list_scope.

(* The built-in macros on an argument list of known shape: [cbv] with the names of *)
(* the argument extraction and of the monad leaves what the definition does with   *)
(* the parts.                                                                       *)
Section Pmac.
Variable rec : task -> M sx.

Theorem when_expansion c body s :
  apply_pmac rec MWhen (Cons c body) s =
  (Ok (of_list [S_ "if"; c; Cons (S_ "progn") body] Nil), s).
Proof. reflexivity. Qed.

Theorem unless_expansion c body s :
  apply_pmac rec MUnless (Cons c body) s =
  (Ok (Cons (S_ "if") (Cons c (Cons Nil body))), s).
Proof. reflexivity. Qed.

Theorem when_let_expansion spec body s :
  apply_pmac rec MWhenLet (Cons spec body) s =
  match progn_on_rest body with
  | Ok pr => (Ok (of_list [S_ "if-let"; spec; pr] Nil), s)
  | Err e => (Err e, s) | Panic n => (Panic n, s) | Fuel => (Fuel, s)
  end.
Proof. reflexivity. Qed.

Theorem while_let_expansion spec body s r :
  append2 (Cons (S_ "progn") (nil_append body)) (Cons T Nil) = Ok r ->
  apply_pmac rec MWhileLet (Cons spec body) s =
  (Ok (of_list [S_ "while"; of_list [S_ "if-let"; spec; r; Nil] Nil] Nil), s).
Proof. intros H. cbv [apply_pmac arg_req bind ret lift]. rewrite H. reflexivity. Qed.

Theorem quote_expansion a s : apply_pmac rec MQuote (Cons a Nil) s = (Ok (Quote a), s).
Proof. reflexivity. Qed.

(* (progn . body) when there are several forms, the form itself when one *)
Theorem progn_on_rest_one x : progn_on_rest (Cons x Nil) = Ok x.
Proof. reflexivity. Qed.
Theorem progn_on_rest_many x y r :
  progn_on_rest (Cons x (Cons y r)) = Ok (Cons (S_ "progn") (Cons x (Cons y r))).
Proof. reflexivity. Qed.

(* if-let* with bindings of the shape (VAR EXPR): each variable is bound to      *)
(* (and PREVIOUS-VARIABLE EXPR) - the first to (and t EXPR) - by one let*, and    *)
(* the THEN form is chosen by the last variable: all the expressions were non-nil *)
Definition mk_binding (b : sx * sx) : sx := of_list [fst b; snd b] Nil.
Fixpoint chain (bs : list (sx * sx)) (prev : sx) : list sx :=
  match bs with
  | [] => []
  | (v, e) :: r => of_list [v; of_list [S_ "and"; prev; e] Nil] Nil :: chain r v
  end.
Definition last_var (bs : list (sx * sx)) : sx := fst (List.last bs (Nil, Nil)).

Lemma build_bindings_chain : forall bs prev acc s,
  build_bindings (map mk_binding bs) prev acc s = (Ok (of_list (acc ++ chain bs prev) Nil), s).
Proof.
  induction bs as [|[v e] bs IH]; intros prev acc s.
  - rewrite app_nil_r. reflexivity.
  - cbn [map build_bindings]. unfold bind at 1.
    assert (E : build_binding (mk_binding (v, e)) prev s =
                (Ok (of_list [v; of_list [S_ "and"; prev; e] Nil] Nil), s)) by reflexivity.
    rewrite E. unfold bind at 1, lift. cbn [car_of of_list].
    rewrite IH, <- app_assoc. reflexivity.
Qed.

Lemma chain_last : forall bs prev, bs <> [] ->
  exists xs p, chain bs prev = xs ++ [of_list [last_var bs; of_list [S_ "and"; p; snd (List.last bs (Nil, Nil))] Nil] Nil].
Proof.
  induction bs as [|[v e] bs IH]; intros prev Hne; [congruence|].
  destruct bs as [|b2 bs'].
  - exists [], prev. reflexivity.
  - destruct (IH v ltac:(discriminate)) as (xs & p & E).
    change (chain ((v, e) :: b2 :: bs') prev)
      with (of_list [v; of_list [S_ "and"; prev; e] Nil] Nil :: chain (b2 :: bs') v). rewrite E.
    exists (of_list [v; of_list [S_ "and"; prev; e] Nil] Nil :: xs), p.
    reflexivity.
Qed.

Theorem if_let_star_expansion bs thn rest s : bs <> [] -> listp rest = true ->
  apply_pmac rec MIfLetStar (Cons (of_list (map mk_binding bs) Nil) (Cons thn rest)) s =
  (Ok (of_list [S_ "let*"; of_list (chain bs T) Nil;
                of_list [S_ "if"; last_var bs; thn] rest] Nil), s).
Proof.
  intros Hne Hrest. cbv [apply_pmac arg_req bind ret lift].
  assert (Hn : null (of_list (map mk_binding bs) Nil) = false) by (destruct bs; [congruence|reflexivity]).
  rewrite Hn, items_proper, build_bindings_chain. cbn [app].
  destruct (chain_last bs T Hne) as (xs & p & E). rewrite E, last_spec.
  assert (Ha : append2 (of_list [S_ "if"; last_var bs; thn] Nil) (nil_append rest) =
               Ok (of_list [S_ "if"; last_var bs; thn] rest)).
  { destruct rest; try discriminate Hrest; reflexivity. }
  cbn [cxr car_of of_list] in Ha |- *. rewrite Ha. reflexivity.
Qed.

Theorem if_let_expansion spec thn rest s c pr :
  car_of spec = Ok c -> listp c = true -> progn_on_rest rest = Ok pr ->
  apply_pmac rec MIfLet (Cons spec (Cons thn rest)) s =
  (Ok (of_list [S_ "if-let*"; spec; thn; pr] Nil), s).
Proof.
  intros Hc Hl Hp. cbv [apply_pmac arg_req bind ret lift].
  rewrite Hc, Hl, andb_false_r, Hp. reflexivity.
Qed.
End Pmac.

(* threading: -> inserts the accumulated form as second element, ->> as last *)
Definition ins_first (x form : sx) : sx :=
  match form with
  | Cons h t => Cons h (Cons x t)
  | _ => of_list [form; x] Nil
  end.
Definition ins_last (x form : sx) : sx :=
  match form with
  | Cons _ _ => of_list (items form ++ [x]) Nil
  | _ => of_list [form; x] Nil
  end.

Lemma thread_fold first (ins : sx -> sx -> sx) (good : sx -> Prop) :
  (forall x form, null form = false -> good form -> thread first 1 x [form] = Ok (ins x form)) ->
  forall forms fuel x,
  List.length forms < fuel -> Forall (fun f => null f = false) forms -> Forall good forms ->
  thread first fuel x forms = Ok (fold_left ins forms x).
Proof.
  intros Hone. induction forms as [|form more IH]; intros fuel x Hf Hn Hg;
    (destruct fuel; [simpl in Hf; lia|]); [reflexivity|].
  inversion Hn as [|? ? Hform Hmore]. inversion Hg as [|? ? Hgf Hgm]; subst.
  (* unfolded too, [Hone] is about the very [one] of the goal *)
  specialize (Hone x form Hform Hgf). cbn [thread] in Hone |- *. rewrite Hform in Hone |- *.
  rewrite Hone. destruct more; [reflexivity|]. apply IH; [simpl in *; lia|assumption|assumption].
Qed.

Lemma thread_first_fold : forall forms fuel x,
  List.length forms < fuel -> Forall (fun f => null f = false) forms ->
  thread true fuel x forms = Ok (fold_left ins_first forms x).
Proof.
  intros forms fuel x Hf Hn.
  apply (thread_fold true ins_first (fun _ => True)); auto.
  - intros x0 form Hform _. destruct form; try discriminate Hform; reflexivity.
  - apply Forall_forall. auto.
Qed.

Lemma thread_last_fold : forall forms fuel x,
  List.length forms < fuel -> Forall (fun f => null f = false) forms ->
  Forall (fun f => consp f = true -> tail_of f = Nil) forms ->
  thread false fuel x forms = Ok (fold_left ins_last forms x).
Proof.
  intros forms fuel x Hf Hn Hp.
  apply (thread_fold false ins_last (fun f => consp f = true -> tail_of f = Nil)); auto.
  intros x0 form Hform Hpf. destruct form; try discriminate Hform; try reflexivity.
  (* a proper list is the list of its items *)
  pose proof (append2_app (items (Cons form1 form2)) [x0]) as H.
  replace (of_list (items (Cons form1 form2)) Nil) with (Cons form1 form2) in H
    by (rewrite <- (Hpf eq_refl); symmetry; apply of_list_items).
  cbn [thread nil_append ins_last]. change (Cons x0 Nil) with (of_list [x0] Nil).
  rewrite H. reflexivity.
Qed.

(* what the expander finds when it looks the head of a list up *)
Definition head_value (s : st) (head : sx) : sx :=
  match key_of head with
  | Some k => if keywordp head then head
              else match bitems (sget s k) with v :: _ => v | [] => head end
  | None => head
  end.

Definition not_macro (s : st) (h : sx) : bool :=
  match head_value s h with PMac _ | Mac _ _ => false | _ => true end.

Fixpoint all_elems (P : sx -> bool) (x : sx) : bool :=
  match x with Cons a d => P a && all_elems P d | _ => true end.

(* no list at any element position (to depth n) has a macro-bound head *)
Fixpoint expandedb (n : nat) (s : st) (x : sx) : bool :=
  match n with
  | O => false
  | S n' => match x with
            | Cons h _ => not_macro s h && all_elems (expandedb n' s) x
            | _ => true
            end
  end.

Lemma head_lookup s head :
  catch (match key_of head with Some _ => sym_get head | None => fail EType end)
        (fun r => match r with
                  | Ok v => ret v
                  | Err _ => ret head
                  | Panic n => panic n | Fuel => lift Fuel end) s
  = (Ok (head_value s head), s).
Proof.
  unfold catch, head_value, sym_get. destruct (key_of head) as [k|]; [|reflexivity].
  destruct (keywordp head); [reflexivity|]. destruct (bitems (sget s k)); reflexivity.
Qed.

Lemma head_value_get s head k v :
  key_of head = Some k -> sym_get head s = (Ok v, s) -> head_value s head = v.
Proof.
  unfold head_value, sym_get. intros ->. destruct (keywordp head); [intros [= <-]; reflexivity|].
  destruct (bitems (sget s k)); intros [= <-]. reflexivity.
Qed.

(* the element walk over the expansion; on [Cons a d] it is, by computation, *)
(* [expand_spine rec a d []] of Walks.v, which the lemmas below speak of      *)
Definition expand_elems (rec : task -> M sx) (x : sx) : M sx :=
  match x with
  | Cons a d =>
      (fix spine (a d : sx) (acc : list sx) {struct d} : M sx :=
         a' <- expand rec a ;;
         match d with
         | Nil => ret (of_list (acc ++ [a']) Nil)
         | Cons a2 d2 => spine a2 d2 (acc ++ [a'])
         | o => ret (of_list (acc ++ [a']) o)
         end) a d []
  | _ => ret x
  end.

Lemma expand_cons F f head args s :
  run F (S f) (TExpand (Cons head args)) s =
  (x <- match head_value s head with
        | PMac m => e <- apply_pmac (run F f) m args ;; expand (run F f) e
        | Mac ps body => e <- eval_function (run F f) false ps body args ;; expand (run F f) e
        | _ => ret (Cons head args)
        end ;;
   expand_elems (run F f) x) s.
Proof.
  cbn [run step]. unfold bind at 1. rewrite head_lookup. reflexivity.
Qed.

Lemma spine_id rec (P : sx -> bool) s :
  (forall a, P a = true -> rec (TExpand a) s = (Ok a, s)) ->
  forall d a acc, P a = true -> all_elems P d = true ->
  expand_spine rec a d acc s = (Ok (of_list (acc ++ a :: items d) (tail_of d)), s).
Proof.
  intros HP. induction d; intros a acc Ha Hd; cbn [expand_spine]; unfold bind, expand;
    rewrite (HP a Ha); try reflexivity.
  apply andb_true_iff in Hd as [Hd1 Hd2].
  rewrite IHd2 by assumption. rewrite <- app_assoc. reflexivity.
Qed.

Lemma expand_not_macro F f head args s : not_macro s head = true ->
  run F (S f) (TExpand (Cons head args)) s = expand_spine (run F f) head args [] s.
Proof.
  intros H. rewrite expand_cons. unfold not_macro in H.
  destruct (head_value s head); try discriminate H; reflexivity.
Qed.

Theorem expanded_is_fixpoint F : forall n x s f, expandedb n s x = true -> n <= f ->
  run F f (TExpand x) s = (Ok x, s).
Proof.
  induction n as [|n IH]; intros x s f Hx Hf; [discriminate|].
  destruct f as [|f]; [lia|]. destruct x; try reflexivity.
  cbn [expandedb all_elems] in Hx. apply andb_true_iff in Hx as [Hm Hx].
  apply andb_true_iff in Hx as [Hx1 Hx2].
  rewrite (expand_not_macro F f x1 x2 s Hm), (spine_id _ (expandedb n s) s); try assumption.
  - cbn [app of_list]. rewrite of_list_items. reflexivity.
  - intros a Ha. apply IH; [assumption|lia].
Qed.

Theorem quoted_untouched F f v s : run F (S f) (TExpand (Quote v)) s = (Ok (Quote v), s).
Proof. reflexivity. Qed.
Theorem atoms_untouched F f x s : consp x = false -> run F (S f) (TExpand x) s = (Ok x, s).
Proof. destruct x; try discriminate; reflexivity. Qed.

Theorem user_macro_step F f head k ps body args s :
  key_of head = Some k -> sym_get head s = (Ok (Mac ps body), s) ->
  run F (S f) (TExpand (Cons head args)) s =
  bind (eval_function (run F f) false ps body args)
       (fun e => bind (run F f (TExpand e)) (fun x => expand_elems (run F f) x)) s.
Proof.
  intros Hk Hg. rewrite expand_cons, (head_value_get s head k _ Hk Hg). apply bind_assoc.
Qed.
