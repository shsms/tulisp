(* C07: eval_back_quote of Model/Eval.v as a left-to-right fold over the     *)
(* template, and the list it builds.                                          *)
From TL Require Import Base.Base Model.Reader Model.Printer Model.Store Model.Eval.
From TL Require Import Proofs.Lists Proofs.Walks.
Local Open Scope list_scope.

Section Bq.
Variable rec : task -> M sx.

(* one element of a template list, given the list built so far *)
Definition bq_elem (acc a : sx) : M sx :=
  match a with
  | Unq v => r <- ev rec v ;; lift (push2 acc r)
  | Splice v => r <- ev rec v ;; lift (append2 acc r)
  | _ => r <- eval_bq rec a ;; lift (push2 acc r)
  end.

(* what follows the last element: nil, an atom after a dot, or `. ,x` *)
Definition bq_tail (acc tl : sx) : M sx :=
  match tl with
  | Unq v => r <- ev rec v ;; lift (append2 acc r)
  | o => lift (append2 acc o)
  end.

Fixpoint bq_fold (es : list sx) (tl acc : sx) : M sx :=
  match es with
  | [] => ret acc
  | [e] => acc1 <- bq_elem acc e ;; bq_tail acc1 tl
  | e :: es' => acc1 <- bq_elem acc e ;; bq_fold es' tl acc1
  end.

Lemma bq_spine_step a d acc :
  bq_spine rec (Cons a d) acc =
  (acc1 <- bq_elem acc a ;; if consp d then bq_spine rec d acc1 else bq_tail acc1 d).
Proof. destruct d; reflexivity. Qed.

(* the template list is processed element by element, left to right, each  *)
(* unquoted expression evaluated exactly once: a monadic fold                *)
Theorem bq_spine_is_fold : forall es tl acc s, es <> [] -> consp tl = false ->
  bq_spine rec (of_list es tl) acc s = bq_fold es tl acc s.
Proof.
  induction es as [|e es IH]; intros tl acc s Hne Htl; [congruence|].
  cbn [of_list]. rewrite bq_spine_step. destruct es as [|e2 es]; cbn [of_list bq_fold].
  - rewrite Htl. reflexivity.
  - apply bind_ext. intros acc1 s1. apply (IH tl acc1 s1); [discriminate|assumption].
Qed.

Theorem eval_bq_is_fold es tl s : es <> [] -> consp tl = false ->
  eval_bq rec (of_list es tl) s = bq_fold es tl Nil s.
Proof.
  intros Hne Htl. destruct es as [|e es]; [congruence|].
  cbn [of_list]. rewrite eval_bq_cons. exact (bq_spine_is_fold (e :: es) tl Nil s Hne Htl).
Qed.

Theorem eval_bq_unquote v : eval_bq rec (Unq v) = ev rec v.
Proof. reflexivity. Qed.
Theorem eval_bq_atom o : consp o = false ->
  (forall v, o <> Unq v) -> (forall v, o <> Splice v) -> (forall v, o <> Quote v) ->
  eval_bq rec o = ret o.
Proof.
  intros H1 H2 H3 H4. destruct o; try reflexivity; try discriminate.
  - exfalso; eapply H4; reflexivity. - exfalso; eapply H2; reflexivity. - exfalso; eapply H3; reflexivity.
Qed.
Theorem eval_bq_nested_quote v :
  eval_bq rec (Quote v) = bind (eval_bq rec v) (fun r => ret (Quote r)).
Proof. reflexivity. Qed.

(* The list that the fold builds when evaluation is pure: *)
Variable val : sx -> sx.          (* the value of each unquoted expression *)
Variable sub : sx -> sx.          (* the value of each nested template     *)
Hypothesis ev_pure : forall v s, rec (TEval v) s = (Ok (val v), s).

Definition is_unq (a : sx) : bool := match a with Unq _ | Splice _ => true | _ => false end.

Definition seg (a : sx) : list sx :=
  match a with
  | Unq v => [val v]
  | Splice v => items (val v)
  | _ => [sub a]
  end.

Definition tail_value (tl : sx) : sx := match tl with Unq v => val v | o => o end.

Definition wf_elem (a : sx) : Prop :=
  match a with
  | Splice v => tail_of (val v) = Nil            (* a spliced value is a proper list *)
  | Unq _ => True
  | _ => forall s, eval_bq rec a s = (Ok (sub a), s)
  end.

Lemma push2_proper xs r : push2 (of_list xs Nil) r = Ok (of_list (xs ++ [r]) Nil).
Proof. rewrite <- (append2_app xs [r]). destruct xs; reflexivity. Qed.

Lemma proper_value v : tail_of v = Nil -> v = of_list (items v) Nil.
Proof. intros H. rewrite <- H. symmetry. apply of_list_items. Qed.

Lemma bq_elem_pure xs a s : wf_elem a ->
  bq_elem (of_list xs Nil) a s = (Ok (of_list (xs ++ seg a) Nil), s).
Proof.
  intros Hw.
  destruct a; cbn [wf_elem] in Hw; unfold bq_elem, bind, ev, lift;
    try (rewrite Hw; rewrite push2_proper; reflexivity).
  - rewrite ev_pure, push2_proper. reflexivity.
  - rewrite ev_pure. rewrite (proper_value (val a) Hw) at 1. rewrite append2_app. reflexivity.
Qed.

(* the tail: nil, or a dotted tail when something precedes it *)
Lemma bq_tail_pure xs tl s : consp tl = false ->
  (xs <> [] \/ listp (tail_value tl) = true) ->
  bq_tail (of_list xs Nil) tl s = (Ok (of_list xs (tail_value tl)), s).
Proof.
  intros Hc Hx. unfold bq_tail, bind, ev.
  assert (Ha : forall t, (xs <> [] \/ listp t = true) ->
               append2 (of_list xs Nil) t = Ok (of_list xs t)).
  { intros t Ht. destruct xs as [|x xs].
    - destruct Ht as [Ht|Ht]; [congruence|]. destruct t; try discriminate; reflexivity.
    - apply append2_proper. discriminate. }
  destruct tl; try discriminate Hc; try (rewrite Ha by assumption; reflexivity).
  - rewrite ev_pure. rewrite Ha by assumption. reflexivity.
Qed.

Theorem bq_fold_value : forall es tl xs s,
  Forall wf_elem es -> consp tl = false -> (forall v, tl <> Splice v) ->
  (xs ++ List.concat (map seg es) <> [] \/ listp (tail_value tl) = true) ->
  es <> [] ->
  bq_fold es tl (of_list xs Nil) s =
  (Ok (of_list (xs ++ List.concat (map seg es)) (tail_value tl)), s).
Proof.
  induction es as [|e es IH]; intros tl xs s Hw Hc Hs Hx Hne; [congruence|].
  inversion Hw as [|? ? He Hes]; subst.
  destruct es as [|e2 es].
  - cbn [bq_fold]. unfold bind. rewrite bq_elem_pure by assumption.
    simpl in Hx |- *. rewrite app_nil_r in *. apply bq_tail_pure; assumption.
  - change (bq_fold (e :: e2 :: es) tl (of_list xs Nil) s)
      with (bind (bq_elem (of_list xs Nil) e) (fun acc1 => bq_fold (e2 :: es) tl acc1) s).
    unfold bind. rewrite bq_elem_pure by assumption.
    rewrite IH; try assumption; try discriminate.
    + rewrite <- app_assoc. reflexivity.
    + simpl in Hx |- *. rewrite <- app_assoc. assumption.
Qed.

End Bq.
