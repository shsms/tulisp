(* C05 - Closures keep the local values they were created with.              *)
(* Statements only; the proofs are in Proofs/Closures.v, Capture.v,           *)
(* CaptureGen.v and EvalRel.v.                                                *)
From TL Require Import Base.Base Model.Reader Model.Printer Model.Store Model.Eval Model.Init.
From TL Require Import Proofs.Closures Proofs.Capture Proofs.CaptureGen Proofs.EvalRel.
Local Open Scope list_scope.

(* The capture walk of `lambda`, one symbol occurrence at a time (the walk   *)
(* visits every occurrence: nested lists, dotted tails, under all five quote  *)
(* marks - Model/Eval.v capture):                                             *)
(* - a variable that is not locally bound at creation is left alone           *)
Theorem C05_free_variable_untouched : forall excl caps x s,
  lex_bound x s = (Ok false, s) -> capture_symbol excl caps x s = (Ok (x, caps), s).
Proof. exact capture_symbol_not_local. Qed.
(* - the lambda's own parameters are left alone                                *)
Theorem C05_parameter_untouched : forall excl caps x s,
  lex_bound x s = (Ok true, s) -> in_excl excl x = true ->
  capture_symbol excl caps x s = (Ok (x, caps), s).
Proof. exact capture_symbol_parameter. Qed.
(* - the first occurrence of a locally bound variable becomes a new cell with *)
(*   a fresh serial that holds the value the variable has at creation           *)
Theorem C05_captures_current_value : forall excl caps x s k v rest n,
  symbolp x = true -> key_of x = Some k -> keywordp x = false -> sym_name x = Some n ->
  lex_bound x s = (Ok true, s) -> in_excl excl x = false -> find_cap caps x = None ->
  bitems (sget s k) = v :: rest ->
  let c := Cell n (next_id s) (cell_root x) in
  let s1 := bump_id s in
  capture_symbol excl caps x s =
  (Ok (c, caps ++ [(x, c)]),
   sput s1 (key_of_id (next_id s)) (b_set (sget s1 (key_of_id (next_id s))) v)).
Proof. exact capture_symbol_new. Qed.
(* - every later occurrence gets the same cell                                  *)
Theorem C05_one_cell_per_variable : forall excl caps x c s,
  lex_bound x s = (Ok true, s) -> in_excl excl x = false -> find_cap caps x = Some c ->
  capture_symbol excl caps x s = (Ok (c, caps), s).
Proof. exact capture_symbol_again. Qed.

(* Cells: a cell reads its own slot regardless of what any variable (in      *)
(* particular the same-named one) is bound to at call time; an assignment      *)
(* changes that slot only and is read back by the next call; the slot is        *)
(* never popped by any evaluation (C03: depths never decrease)                  *)
Theorem C05_cell_ignores_caller_bindings : forall n id root s k b,
  k <> key_of_id id ->
  fst (sym_get (Cell n id root) (sput s k b)) = fst (sym_get (Cell n id root) s).
Proof. exact cell_read_independent. Qed.
Theorem C05_cell_key_is_private : forall nm id, key_of_name nm <> key_of_id id.
Proof. exact name_key_not_cell_key. Qed.
Theorem C05_cell_assignment_persists : forall n id root v s,
  exists s', sym_set (Cell n id root) v s = (Ok tt, s') /\
             fst (sym_get (Cell n id root) s') = Ok v /\
             forall k, k <> key_of_id id -> sget s' k = sget s k.
Proof. exact cell_write_read. Qed.
Theorem C05_cell_survives_evaluation : forall F fuel t s s' r id,
  eval_string F fuel t s = (r, s') -> r <> Fuel ->
  (depth s (key_of_id id) <= depth s' (key_of_id id))%nat.
Proof.
  intros F fuel t s s' r id H Hr. destruct (eval_string_inv F fuel t s r s' H Hr) as [I _].
  pose proof (I (key_of_id id)) as X. lia.
Qed.

(* The WHOLE body (as it comes from program text: all symbols interned): the  *)
(* walk succeeds and returns the body with every capturable variable - locally  *)
(* bound at creation and not a parameter - replaced at EVERY occurrence (nested  *)
(* lists, dotted tails, under all five quote marks) by one cell per variable,    *)
(* and nothing else changed; no variable's own bindings are touched by it.       *)
Theorem C05_whole_body : forall s excl body,
  only_syms body = true ->
  exists caps s2,
    capture excl [] body s = (Ok (subst caps body, caps), s2) /\
    name_agree s s2 /\ caps_ok s excl caps /\ closed s excl caps body.
Proof. exact capture_whole_body. Qed.
Theorem C05_not_capturable_untouched : forall s excl caps n,
  caps_ok s excl caps -> capturable s excl n = false -> subst caps (Sym n) = Sym n.
Proof. exact not_capturable_untouched. Qed.
Theorem C05_capturable_gets_one_cell : forall s excl caps n,
  caps_ok s excl caps -> closed s excl caps (Sym n) -> capturable s excl n = true ->
  exists id, subst caps (Sym n) = Cell n id (key_of_name n).
Proof. exact capturable_replaced_by_its_cell. Qed.

(* ANY body - in particular one that already contains cells of an enclosing      *)
(* closure (the body of a lambda inside a lambda has been walked once by the     *)
(* outer capture) or uninterned symbols.  `ok s body`: the serials in the body    *)
(* have been handed out in s and its cells hold values.  The walk succeeds and    *)
(* returns `gsubst`: every symbol occurrence x (interned, uninterned or cell)     *)
(* that is locally bound at creation (a cell always is) and not a parameter is    *)
(* replaced by the cell the capture list holds for the first occurrence eq to     *)
(* it; everything else is unchanged; each of those cells is NEW (its serial was   *)
(* not handed out in s), is rooted where the occurrence it was made from is, and  *)
(* no binding that existed in s is written (`agree`).                             *)
Theorem C05_whole_body_any : forall s excl body,
  ok s body ->
  exists caps s2,
    capture excl [] body s = (Ok (gsubst s excl caps body, caps), s2) /\
    agree s s2 /\ gcaps_ok s excl caps /\ gclosed s excl caps body.
Proof. exact capture_any_body. Qed.
(* nested closures: a cell of the enclosing closure is captured AGAIN - the inner *)
(* closure gets a new cell of its own (initialised from the outer cell by          *)
(* C05_captures_current_value), it does not share the outer one                    *)
Theorem C05_outer_cell_recaptured : forall s excl caps n i r,
  gcaps_ok s excl caps -> gclosed s excl caps (Cell n i r) -> in_excl excl (Cell n i r) = false ->
  exists from nm id,
    gsubst s excl caps (Cell n i r) = Cell nm id (cell_root from) /\
    In (from, Cell nm id (cell_root from)) caps /\ sym_eq (Cell n i r) from = true /\
    (next_id s <= id)%positive.
Proof. exact outer_cell_recaptured. Qed.
Theorem C05_not_capturable_untouched_any : forall s excl caps x,
  symbolp x = true -> capt s excl x = false -> gsubst s excl caps x = x.
Proof. exact not_capt_untouched. Qed.
Theorem C05_general_walk_extends_text_walk : forall s excl caps x,
  only_syms x = true -> caps_ok s excl caps -> gsubst s excl caps x = subst caps x.
Proof. exact gsubst_on_text_bodies. Qed.

Print Assumptions C05_whole_body_any. Print Assumptions C05_outer_cell_recaptured.
Print Assumptions C05_not_capturable_untouched_any. Print Assumptions C05_general_walk_extends_text_walk.
Print Assumptions C05_whole_body. Print Assumptions C05_not_capturable_untouched.
Print Assumptions C05_capturable_gets_one_cell.
Print Assumptions C05_free_variable_untouched. Print Assumptions C05_parameter_untouched.
Print Assumptions C05_captures_current_value. Print Assumptions C05_one_cell_per_variable.
Print Assumptions C05_cell_ignores_caller_bindings. Print Assumptions C05_cell_key_is_private.
Print Assumptions C05_cell_assignment_persists. Print Assumptions C05_cell_survives_evaluation.

(* non-vacuity: creation value kept under rebinding; own assignments persist; *)
(* free variables and parameters resolved at call time; occurrence in a nested *)
(* list, a dotted tail and under a backquote                                    *)
Definition F0 : fops :=
  {| f_add := fun _ _ => 0%Z; f_sub := fun _ _ => 0%Z; f_mul := fun _ _ => 0%Z;
     f_div := fun _ _ => 0%Z; f_rem := fun _ _ => 0%Z; f_pow := fun _ _ => 0%Z;
     f_max := fun _ _ => 0%Z; f_min := fun _ _ => 0%Z; f_of_int := fun z => z;
     f_to_int := fun z => z; f_round := fun z => z; f_trunc := fun z => z;
     f_lt := Z.ltb; f_le := Z.leb; f_eq := Z.eqb; f_is_finite := fun _ => true;
     f_to_dec := fun _ => []; f_of_dec := fun _ => None |}.
Definition ev0 (p : string) := fst (eval_string F0 80 (s2t p) (init_state [] None)).
Example C05_ex1 :
  ev0 "(setq g 5) (setq f (let ((x 1)) (lambda (p) (list x p g)))) (setq x 100) (let ((x 7) (g 6)) (funcall f x))"
  = ev0 "'(1 7 6)".
Proof. vm_compute. reflexivity. Qed.
Example C05_ex2 :
  ev0 "(setq c (let ((n 0)) (lambda () (setq n (+ n 1)) n))) (setq n 50) (list (funcall c) (funcall c) (funcall c) n)"
  = ev0 "'(1 2 3 50)".
Proof. vm_compute. reflexivity. Qed.
Example C05_ex3 :
  ev0 "(setq f (let ((x 1)) (lambda () `(a (b ,x) . ,x)))) (let ((x 2)) (funcall f))"
  = ev0 "'(a (b 1) . 1)".
Proof. vm_compute. reflexivity. Qed.

(* nested closures: the inner closure reads the value the outer cell had when the *)
(* inner one was created; its own assignments go to its own cell                   *)
Example C05_ex4 :
  ev0 "(setq mk (let ((x 1)) (lambda () (lambda () x)))) (setq x 100) (let ((x 7)) (funcall (funcall mk)))"
  = ev0 "1".
Proof. vm_compute. reflexivity. Qed.
Example C05_ex5 :
  ev0 "(setq mk (let ((n 0)) (lambda () (setq n (+ n 10)) (lambda () (setq n (+ n 1)) n)))) (setq a (funcall mk)) (setq b (funcall mk)) (list (funcall a) (funcall a) (funcall b) (funcall a))"
  = ev0 "'(11 12 21 13)".
Proof. vm_compute. reflexivity. Qed.
(* the hypothesis of C05_whole_body_any holds of the body of a closure made by a  *)
(* run: it contains a cell, with a serial below the next one and a value           *)
Definition st_nested := snd (eval_string F0 80 (s2t "(setq mk (let ((x 1)) (lambda (p) (lambda () (list x p)))))") (init_state [] None)).
Definition body_nested : sx :=
  match bitems (sget st_nested (key_of_name (s2t "mk"))) with
  | Lam _ b :: _ => b
  | _ => Nil
  end.
Example C05_ok_nonvacuous : ok st_nested body_nested /\ body_nested <> Nil.
Proof. vm_compute. repeat split; try reflexivity; discriminate. Qed.

Check C05_captures_current_value : forall excl caps x s k v rest n,
  symbolp x = true -> key_of x = Some k -> keywordp x = false -> sym_name x = Some n ->
  lex_bound x s = (Ok true, s) -> in_excl excl x = false -> find_cap caps x = None ->
  bitems (sget s k) = v :: rest ->
  let c := Cell n (next_id s) (cell_root x) in
  let s1 := bump_id s in
  capture_symbol excl caps x s =
  (Ok (c, caps ++ [(x, c)]),
   sput s1 (key_of_id (next_id s)) (b_set (sget s1 (key_of_id (next_id s))) v)).
