(* C13: the integer / float tower of Model/Eval.v against Z arithmetic.    *)
From TL Require Import Base.Base Model.Reader Model.Printer Model.Store Model.Eval.
Local Open Scope Z_scope.

Section WithFloat.
Variable F : fops.

Definition in_range (z : Z) : Prop := i64_min <= z <= i64_max.

Lemma in_i64_spec z : in_i64 z = true <-> in_range z.
Proof.
  unfold in_i64, in_range. rewrite andb_true_iff, !Z.leb_le. tauto.
Qed.

Lemma checked_ok z : in_range z -> checked z = Ok (Int z).
Proof. intros H. unfold checked. apply in_i64_spec in H. rewrite H. reflexivity. Qed.

Lemma checked_err z : ~ in_range z -> checked z = Err ERange.
Proof.
  intros H. unfold checked. destruct (in_i64 z) eqn:E; auto.
  apply in_i64_spec in E. contradiction.
Qed.

Lemma checked_inv z r : checked z = Ok r -> r = Int z /\ in_range z.
Proof.
  unfold checked. destruct (in_i64 z) eqn:E; intros [= <-].
  split; [reflexivity|apply in_i64_spec, E].
Qed.

(* The range facts below are proved for the bound as a variable: with the *)
(* literal 2 ^ 63 in them lia's certificates are several times as large.   *)
Lemma i64_bounds : exists M, 2 <= M /\ i64_min = - M /\ i64_max = M - 1.
Proof. exists (2 ^ 63). split; [apply Z.leb_le|]; auto. Qed.

Theorem add_int a b : binop F OAdd (Int a) (Int b) =
  if in_i64 (a + b) then Ok (Int (a + b)) else Err ERange.
Proof. reflexivity. Qed.

Theorem sub_int a b : binop F OSub (Int a) (Int b) =
  if in_i64 (a - b) then Ok (Int (a - b)) else Err ERange.
Proof. reflexivity. Qed.

Theorem mul_int a b : binop F OMul (Int a) (Int b) =
  if in_i64 (a * b) then Ok (Int (a * b)) else Err ERange.
Proof. reflexivity. Qed.

Theorem div_int a b : b <> 0 ->
  binop F ODiv (Int a) (Int b) = if in_i64 (Z.quot a b) then Ok (Int (Z.quot a b)) else Err ERange.
Proof.
  intros H. cbn. destruct (Z.eqb_spec b 0); [contradiction|reflexivity].
Qed.

Theorem div_int_zero a : binop F ODiv (Int a) (Int 0) = Err ERange.
Proof. reflexivity. Qed.

Lemma quot_abs_le a b k : 0 <= k <= Z.abs b -> b <> 0 -> k * Z.abs (Z.quot a b) <= Z.abs a.
Proof.
  intros Hk Hb. rewrite <- Z.quot_abs by assumption.
  transitivity (Z.abs b * (Z.quot (Z.abs a) (Z.abs b))).
  - apply Z.mul_le_mono_nonneg_r; [apply Z.quot_pos|]; lia.
  - apply Z.mul_quot_le; lia.
Qed.

(* within the i64 range the only quotient that overflows is min / -1: a     *)
(* divisor other than 1 and -1 at least halves the absolute value           *)
Lemma quot_in_range a b : in_range a -> b <> 0 ->
  ~ (a = i64_min /\ b = -1) -> in_range (Z.quot a b).
Proof.
  unfold in_range. destruct i64_bounds as (M & HM & -> & ->). intros Ha Hz Hn.
  destruct (Z.eq_dec b 1) as [->|H1]; [rewrite Z.quot_1_r; exact Ha|].
  destruct (Z.eq_dec b (-1)) as [->|H2].
  - change (-1) with (- (1)). rewrite Z.quot_opp_r, Z.quot_1_r by discriminate. lia.
  - assert (H : 2 * Z.abs (Z.quot a b) <= Z.abs a) by (apply quot_abs_le; lia).
    clear - H Ha HM. lia.
Qed.

(* Z.modulo's quotient is the truncated one, less one when the remainder is adjusted *)
Lemma rem_mod_adjust s o : o <> 0 ->
  (if negb (Z.eqb (Z.rem s o) 0) && negb (Bool.eqb (Z.rem s o <? 0) (o <? 0))
   then Z.rem s o + o else Z.rem s o) = Z.modulo s o.
Proof.
  intros Ho.
  pose proof (Z.quot_rem' s o) as Hq.
  pose proof (Z.rem_bound_abs s o Ho) as Hb.
  destruct (Z.eqb_spec (Z.rem s o) 0) as [E0|E0]; cbn.
  - apply (Z.mod_unique s o (Z.quot s o)); [lia|exact Hq].
  - destruct (Z.ltb_spec (Z.rem s o) 0), (Z.ltb_spec o 0); cbn.
    + apply (Z.mod_unique s o (Z.quot s o)); [lia|exact Hq].
    + apply (Z.mod_unique s o (Z.quot s o - 1)); lia.
    + apply (Z.mod_unique s o (Z.quot s o - 1)); lia.
    + apply (Z.mod_unique s o (Z.quot s o)); [lia|exact Hq].
Qed.

Theorem mod_int a b : b <> 0 -> binop F OMod (Int a) (Int b) = Ok (Int (Z.modulo a b)).
Proof.
  intros Hb. cbn. unfold int_mod.
  destruct (Z.eqb_spec b (-1)) as [->|_].
  - assert (a mod -1 = 0) as -> by (pose proof (Z.mod_neg_bound a (-1)); lia). reflexivity.
  - destruct (Z.eqb_spec b 0); [contradiction|].
    rewrite <- (rem_mod_adjust a b Hb). destruct (negb _ && negb _); reflexivity.
Qed.

Theorem mod_int_zero a : binop F OMod (Int a) (Int 0) = Err ERange.
Proof. reflexivity. Qed.

Lemma mod_in_range a b : in_range b -> b <> 0 -> in_range (Z.modulo a b).
Proof.
  unfold in_range. destruct i64_bounds as (M & HM & -> & ->). intros Hb Hz.
  destruct (Z.lt_trichotomy b 0) as [H|[H|H]]; [|contradiction|].
  - pose proof (Z.mod_neg_bound a b H). lia.
  - pose proof (Z.mod_pos_bound a b H). lia.
Qed.

Definition is_flt (x : sx) : Prop := exists b, x = Flt b.
Definition is_num (x : sx) : Prop := (exists z, x = Int z) \/ is_flt x.

Theorem contagion op a b r : is_num a -> is_num b -> (is_flt a \/ is_flt b) ->
  binop F op a b = Ok r -> is_flt r.
Proof.
  intros [[x ->]|[x ->]] [[y ->]|[y ->]] [[z Hz]|[z Hz]] H; try discriminate Hz;
    cbn in H; inversion H; eexists; reflexivity.
Qed.

Theorem int_closed op a b r : in_range b ->
  binop F op (Int a) (Int b) = Ok r -> exists z, r = Int z /\ in_range z.
Proof.
  intros Hb H. destruct op; cbn in H.
  1-3: apply checked_inv in H; eauto.
  - destruct (Z.eqb b 0); [discriminate H|]. apply checked_inv in H; eauto.
  - destruct (Z.eq_dec b 0) as [->|Hz]; [discriminate H|].
    change (binop F OMod (Int a) (Int b) = Ok r) in H. rewrite mod_int in H by assumption.
    injection H as <-. eauto using mod_in_range.
Qed.

Theorem non_number_rejected op a b : ~ is_num a \/ ~ is_num b -> 
  match binop F op a b with Ok _ => False | _ => True end.
Proof.
  intros H. destruct a, b; try exact I;
    exfalso; destruct H as [H|H]; apply H; unfold is_num, is_flt; eauto.
Qed.

(* what an n-ary operator is to compute: the left fold of the binary one *)
Fixpoint fold_op (op : sx -> sx -> res sx) (acc : sx) (l : list sx) : res sx :=
  match l with
  | [] => Ok acc
  | x :: r => match op acc x with Ok a => fold_op op a r | e => e end
  end.

Definition numlit (x : sx) : bool := numberp x.

Section Lits.
Variable rec : task -> M sx.
(* numeric literals evaluate to themselves *)
Hypothesis rec_lit : forall x s, numlit x = true -> rec (TEval x) s = (Ok x, s).

Lemma reduce_rest_lits op : forall l acc s, forallb numlit l = true ->
  reduce_rest rec op acc (of_list l Nil) s = (fold_op op acc l, s).
Proof.
  induction l as [|x l IH]; intros acc s Hl; simpl in *; [reflexivity|].
  apply andb_true_iff in Hl as [Hx Hl]. unfold bind, ev. rewrite rec_lit by assumption.
  unfold lift. destruct (op acc x); try reflexivity. apply IH; assumption.
Qed.

Lemma reduce_with_lits op a l s : forallb numlit (a :: l) = true ->
  reduce_with rec op (of_list (a :: l) Nil) s = (fold_op op a l, s).
Proof.
  intros Hl. apply andb_true_iff in Hl as [Ha Hl].
  unfold reduce_with. simpl. unfold bind, ev. rewrite rec_lit by assumption.
  unfold numlit in Ha. rewrite Ha. rewrite andb_false_r.
  apply reduce_rest_lits; assumption.
Qed.

(* a comparison chain over numeric literals holds exactly when every      *)
(* adjacent pair does                                                      *)
Fixpoint adjacent (c : cmp) (l : list sx) : res bool :=
  match l with
  | x :: ((y :: _) as r) =>
      match compare2 F c x y, adjacent c r with
      | Ok b1, Ok b2 => Ok (b1 && b2)
      | Err e, _ | _, Err e => Err e
      | _, _ => Fuel
      end
  | _ => Ok true
  end.

Lemma compare2_num c x y : numlit x = true -> numlit y = true ->
  exists b, compare2 F c x y = Ok b.
Proof. destruct x; try discriminate; destruct y; try discriminate; simpl; eauto. Qed.

Lemma adjacent_num c : forall l, forallb numlit l = true -> exists b, adjacent c l = Ok b.
Proof.
  induction l as [|x l IH]; intros Hl; [simpl; eauto|].
  simpl in Hl. apply andb_true_iff in Hl as [Hx Hl].
  destruct l as [|y l]; [simpl; eauto|].
  destruct (IH Hl) as [b2 E2]. apply andb_true_iff in Hl as [Hy _].
  destruct (compare2_num c x y Hx Hy) as [b1 E1].
  cbn [adjacent]. rewrite E1. cbn [adjacent] in E2. rewrite E2. eauto.
Qed.

Lemma compare_chain_lits c : forall l p holds s b, forallb numlit (p :: l) = true ->
  adjacent c (p :: l) = Ok b ->
  compare_chain F rec c l (Some p) holds s = (Ok (of_bool (holds && b)), s).
Proof.
  induction l as [|x l IH]; intros p holds s b Hl Hb.
  - injection Hb as <-. rewrite andb_true_r. reflexivity.
  - cbn [forallb] in Hl. apply andb_true_iff in Hl as [Hp Hl].
    pose proof Hl as Hx. cbn [forallb] in Hx. apply andb_true_iff in Hx as [Hx _].
    destruct (compare2_num c p x Hp Hx) as [b1 E1], (adjacent_num c (x :: l) Hl) as [b2 E2].
    cbn [adjacent] in Hb, E2. rewrite E1, E2 in Hb. injection Hb as <-.
    rewrite andb_assoc, <- (IH x (holds && b1) s b2 Hl E2).
    cbn [compare_chain]. unfold bind, ev. rewrite rec_lit by assumption.
    unfold numlit in Hx. rewrite Hx.
    destruct holds; rewrite ?E1; reflexivity.
Qed.

End Lits.

Theorem max_int a b : maxmin F true (Int a) (Int b) = Ok (Int (Z.max a b)).
Proof. reflexivity. Qed.
Theorem min_int a b : maxmin F false (Int a) (Int b) = Ok (Int (Z.min a b)).
Proof. reflexivity. Qed.

Lemma fold_maxmin_int (mx : bool) : forall l a, exists m,
  fold_op (maxmin F mx) (Int a) (map Int l) = Ok (Int m) /\
  In m (a :: l) /\ Forall (fun x => if mx then x <= m else m <= x) (a :: l).
Proof.
  induction l as [|x l IH]; intros a; simpl.
  - exists a. split; [reflexivity|]. split; [auto|]. constructor; [destruct mx; lia|constructor].
  - destruct (IH (if mx then Z.max a x else Z.min a x)) as (m & E & Hin & Hall).
    exists m. split; [exact E|]. inversion Hall as [|? ? Hm Hl]; subst. split.
    + destruct Hin as [<-|Hin]; [|auto].
      destruct mx; [destruct (Z.max_dec a x) as [->| ->]|destruct (Z.min_dec a x) as [->| ->]]; auto.
    + constructor; [destruct mx; lia|]. constructor; [destruct mx; lia|assumption].
Qed.
Lemma fold_max_int : forall l a, exists m,
  fold_op (maxmin F true) (Int a) (map Int l) = Ok (Int m) /\
  In m (a :: l) /\ Forall (fun x => x <= m) (a :: l).
Proof. exact (fold_maxmin_int true). Qed.
Lemma fold_min_int : forall l a, exists m,
  fold_op (maxmin F false) (Int a) (map Int l) = Ok (Int m) /\
  In m (a :: l) /\ Forall (fun x => m <= x) (a :: l).
Proof. exact (fold_maxmin_int false). Qed.

End WithFloat.
