(* Base definitions shared by the model, the specs and the proofs. *)
From Coq Require Export List ZArith NArith PArith Bool Lia String Ascii.
From Coq Require Export FMapPositive.
Export ListNotations.
Open Scope Z_scope.

(* ------------------------------------------------------------------ *)
(* Outcomes.  [Panic site] marks a partial Rust operation reached with  *)
(* an operand outside its domain (unwrap, usize subtraction, overflow). *)

Inductive ekind :=
| ENotImpl | EParse | EType | EUndef | EUninit | ESyntax | EMissing | ERange
| EHost.

Inductive res (A : Type) :=
| Ok (a : A) | Err (e : ekind) | Panic (site : N) | Fuel.
Arguments Ok {A}. Arguments Err {A}. Arguments Panic {A}. Arguments Fuel {A}.

Definition is_panic {A} (r : res A) : bool :=
  match r with Panic _ => true | _ => false end.
Definition is_fuel {A} (r : res A) : bool :=
  match r with Fuel => true | _ => false end.

(* ------------------------------------------------------------------ *)
(* Text = list of Unicode code points.                                  *)

Definition cp := N.
Definition text := list cp.

Definition ascii_cp (a : ascii) : cp := N_of_ascii a.
Fixpoint s2t (s : string) : text :=
  match s with EmptyString => [] | String a r => ascii_cp a :: s2t r end.

Fixpoint text_eqb (a b : text) : bool :=
  match a, b with
  | [], [] => true
  | x :: a', y :: b' => N.eqb x y && text_eqb a' b'
  | _, _ => false
  end.

Lemma text_eqb_eq a b : text_eqb a b = true <-> a = b.
Proof.
  revert b; induction a as [|x a IH]; intros [|y b]; simpl; split; intros H;
    try congruence; try discriminate.
  - apply andb_true_iff in H as [H1 H2]. apply N.eqb_eq in H1.
    apply IH in H2. congruence.
  - inversion H; subst. rewrite N.eqb_refl. simpl. apply IH. reflexivity.
Qed.

Lemma text_eqb_refl a : text_eqb a a = true.
Proof. apply text_eqb_eq. reflexivity. Qed.

(* ------------------------------------------------------------------ *)
(* Keys of the binding store.  Interned symbols are keyed by an        *)
(* encoding of their name; uninterned symbols and closure cells by an   *)
(* allocation serial.                                                  *)

Fixpoint pos_app_bits (n : nat) (c : N) (p : positive) : positive :=
  match n with
  | O => p
  | S n' => pos_app_bits n' (N.div2 c)
              (if N.odd c then xI p else xO p)
  end.

(* 21 bits per code point, prefixed by a length-independent layout:     *)
(* the encoding is a fold, so distinct names give distinct keys.        *)
Fixpoint encode_name (t : text) (p : positive) : positive :=
  match t with
  | [] => p
  | c :: r => encode_name r (pos_app_bits 21 c p)
  end.

Definition key := positive.
Definition key_of_name (t : text) : key := xO (encode_name t xH).
Definition key_of_id (id : positive) : key := xI id.

(* ------------------------------------------------------------------ *)
(* Built-in functions and macros.                                      *)

Inductive prim :=
(* special forms registered with set_global *)
| PAdd | PSub | PMul | PDiv | PGt | PGe | PLt | PLe | PMax | PMin
| PFround | PFtruncate | PIf | PCond | PSetq | PSet | PCons | PDolist
| PDotimes | PList
| PConsp | PListp | PFloatp | PIntegerp | PNumberp | PStringp | PSymbolp
| PBoundp | PKeywordp
| PStrLt | PStrGt | PStrEq | PStrLessp | PStrGreaterp | PStrEqual
(* crate_fn, arguments evaluated by the generated wrapper *)
| PLoad | PIntern | PMakeSymbol | PGensym | PExpt | PConcat | PFormat
| PPrint | PPrin1ToString | PPrinc | PNull | PEval | PMacroexpand
| PAppend | PMapcar | PAssoc | PAlistGet | PPlistGet | PNot | PXor
| PEqual | PEq | PMakeHashTable | PGethash | PPuthash
| PNth | PNthcdr | PLast | PCxr (path : list bool)
| PLength | PSeqMap | PSeqReduce | PSeqFilter | PSeqFind | PSort
| P1Plus | P1Minus | PMod
(* crate_fn_no_eval *)
| PWhile | PLet | PLetStar | PProgn | PDefun | PLambda | PDefmacro
| PFuncall | PAnd | POr | PDeclare
(* host-registered by the harness *)
| PTick | PProbe | PHostAdd | PHostBox | PHostOpt | PHostConv | PHostId.

Inductive pmac :=
| MWhen | MUnless | MIfLetStar | MIfLet | MWhenLet | MWhileLet
| MThreadFirst | MThreadLast | MQuote.

(* ------------------------------------------------------------------ *)
(* Values.                                                             *)

Inductive sx :=
| Nil | T
| Int (z : Z)
| Flt (bits : Z)                       (* binary64 bit pattern          *)
| Str (s : text)
| Sym (n : text)                       (* interned symbol               *)
| USym (n : text) (id : positive)      (* make-symbol / gensym          *)
| Cell (n : text) (id : positive) (root : key)   (* LexicalBinding      *)
| Cons (a d : sx)
| Quote (x : sx) | Bq (x : sx) | Unq (x : sx) | Splice (x : sx)
| Sharp (x : sx)
| Lam (ps body : sx)
| Mac (ps body : sx)
| Prim (p : prim)
| PMac (m : pmac)
| Bounce
| Any (h : option positive).           (* hash table id / foreign box   *)

Definition sx_list := list sx.

Fixpoint of_list (l : list sx) (tail : sx) : sx :=
  match l with [] => tail | x :: r => Cons x (of_list r tail) end.

(* [items x]: what base_iter yields: the cars along the spine; an       *)
(* improper tail is ignored.                                           *)
Fixpoint items (x : sx) : list sx :=
  match x with Cons a d => a :: items d | _ => [] end.

(* the part left after the last cons (Nil for a proper list) *)
Fixpoint tail_of (x : sx) : sx :=
  match x with Cons _ d => tail_of d | t => t end.

Lemma of_list_items x : of_list (items x) (tail_of x) = x.
Proof. induction x; simpl; try reflexivity. rewrite IHx2. reflexivity. Qed.

Lemma items_of_list l t : (forall a d, t <> Cons a d) -> items (of_list l t) = l.
Proof.
  intros Ht; induction l as [|x l IH]; simpl.
  - destruct t; try reflexivity. exfalso; eapply Ht; reflexivity.
  - rewrite IH. reflexivity.
Qed.

Lemma of_list_app xs ys t : of_list (xs ++ ys) t = of_list xs (of_list ys t).
Proof. induction xs as [|x xs IH]; simpl; [|rewrite IH]; reflexivity. Qed.

Definition consp (x : sx) : bool := match x with Cons _ _ => true | _ => false end.
Definition null (x : sx) : bool := match x with Nil => true | _ => false end.
Definition listp (x : sx) : bool := consp x || null x.
Definition symbolp (x : sx) : bool :=
  match x with Sym _ | USym _ _ | Cell _ _ _ => true | _ => false end.
Definition integerp (x : sx) : bool := match x with Int _ => true | _ => false end.
Definition floatp (x : sx) : bool := match x with Flt _ => true | _ => false end.
Definition numberp (x : sx) : bool := integerp x || floatp x.
Definition stringp (x : sx) : bool := match x with Str _ => true | _ => false end.

Definition sym_name (x : sx) : option text :=
  match x with
  | Sym n | USym n _ | Cell n _ _ => Some n
  | _ => None
  end.

Definition key_of (x : sx) : option key :=
  match x with
  | Sym n => Some (key_of_name n)
  | USym _ id => Some (key_of_id id)
  | Cell _ id _ => Some (key_of_id id)
  | _ => None
  end.

Definition colon : cp := 58%N.
Definition name_constant (n : text) : bool :=
  match n with c :: _ => N.eqb c colon | [] => false end.

(* keywordp: Symbol whose name starts with ':' (not a closure cell) *)
Definition keywordp (x : sx) : bool :=
  match x with
  | Sym n | USym n _ => name_constant n
  | _ => false
  end.

Definition i64_min : Z := - 2 ^ 63.
Definition i64_max : Z := 2 ^ 63 - 1.
Definition in_i64 (z : Z) : bool := (i64_min <=? z) && (z <=? i64_max).

(* ------------------------------------------------------------------ *)
(* Floating point: an oracle record over bit patterns, supplied by the *)
(* driver of the extracted code (hardware binary64).                   *)

Record fops := {
  f_add : Z -> Z -> Z; f_sub : Z -> Z -> Z; f_mul : Z -> Z -> Z;
  f_div : Z -> Z -> Z; f_rem : Z -> Z -> Z; f_pow : Z -> Z -> Z;
  f_max : Z -> Z -> Z; f_min : Z -> Z -> Z;
  f_of_int : Z -> Z;            (* i64 as f64 *)
  f_to_int : Z -> Z;            (* f64 as i64 after trunc, saturating *)
  f_round : Z -> Z; f_trunc : Z -> Z;
  f_lt : Z -> Z -> bool; f_le : Z -> Z -> bool; f_eq : Z -> Z -> bool;
  f_is_finite : Z -> bool;
  f_to_dec : Z -> text;         (* Rust Display for f64 *)
  f_of_dec : text -> option Z   (* Rust str::parse::<f64> *)
}.
