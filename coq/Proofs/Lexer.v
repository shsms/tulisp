(* C09 at character level: the tokenizer run on the printed text of a data    *)
(* value, or on its tokens written in any layout, yields exactly the value's   *)
(* tokens, so reading the text gives the value back.                           *)
From TL Require Import Base.Base Model.Reader Model.Printer Model.Eval.
From TL Require Import Proofs.ReaderTotal Proofs.Decimal Proofs.ReadPrint Proofs.Positions.
Local Open Scope nat_scope.
Local Open Scope list_scope.

(* [rest] ends an identifier or number before it: it is empty or starts with white space or `)` *)
Definition term (rest : text) : Prop :=
  rest = [] \/ exists c r, rest = c :: r /\ ident_stop c = true.

Definition nostop (n : text) : bool := forallb (fun c => negb (ident_stop c)) n.

(* a character with which an identifier or number token can start *)
Definition ordinary (c : cp) : bool :=
  negb (N.eqb c c_nl || N.eqb c c_sp || N.eqb c c_cr || N.eqb c c_tab ||
        N.eqb c c_lp || N.eqb c c_rp || N.eqb c c_quote || N.eqb c c_btick ||
        N.eqb c c_dot || N.eqb c c_sharp || N.eqb c c_comma || N.eqb c c_dq || N.eqb c c_semi).

(* with a constant for [k], the first hypothesis is closed by evaluation *)
Lemma ordinary_neq c k : ordinary k = false -> ordinary c = true -> N.eqb c k = false.
Proof. intros Hk Hc. destruct (N.eqb_spec c k) as [->|]; congruence. Qed.

Lemma ordinary_nostop c : ordinary c = true -> ident_stop c = false.
Proof.
  intros Ho. unfold ident_stop. rewrite !(ordinary_neq c) by first [exact Ho|reflexivity].
  reflexivity.
Qed.

Lemma digit_ordinary c : is_digit c = true -> ordinary c = true.
Proof.
  intros Hc. destruct (ordinary c) eqn:E; [reflexivity|].
  unfold ordinary in E. apply negb_false_iff in E.
  repeat (apply orb_true_iff in E as [E|E]); apply N.eqb_eq in E; subst c; discriminate Hc.
Qed.

(* the classification flags of read_num_ident, without the positions *)
Fixpoint sflags (cs : text) (first i f : bool) : bool * bool :=
  match cs with
  | [] => (i, f)
  | c :: r =>
      if N.eqb c c_minus then (if first then sflags r false i f else sflags r false false false)
      else if is_digit c then sflags r false i f
      else if N.eqb c c_dot then
        (if i && negb f then sflags r false false true
         else if f then sflags r false i false
         else sflags r false i f)
      else sflags r false false false
  end.

Lemma scan_sflags : forall n rest line pos first i f acc, nostop n = true -> term rest ->
  scan_ident (n ++ rest) line pos first i f acc =
  (rev acc ++ n, fst (sflags n first i f), snd (sflags n first i f), rest,
   fst (walk n line pos), snd (walk n line pos)).
Proof.
  induction n as [|c n IH]; intros rest line pos first i f acc Hn Ht.
  - rewrite app_nil_r. destruct Ht as [->|(c & r & -> & Hs)]; simpl; rewrite ?Hs; reflexivity.
  - simpl in Hn. apply andb_true_iff in Hn as [Hc Hn]. apply negb_true_iff in Hc.
    simpl app. cbn [scan_ident sflags walk]. rewrite Hc.
    destruct (advance c line pos) as [l1 p1].
    assert (E : forall a b d, scan_ident (n ++ rest) l1 p1 a b d (c :: acc) =
              (rev acc ++ c :: n, fst (sflags n a b d), snd (sflags n a b d), rest,
               fst (walk n l1 p1), snd (walk n l1 p1))).
    { intros a b d. rewrite IH by assumption. simpl. rewrite <- app_assoc. reflexivity. }
    destruct (N.eqb c c_minus); [destruct first; apply E|].
    destruct (is_digit c); [apply E|].
    destruct (N.eqb c c_dot); [|apply E].
    destruct (i && negb f); [apply E|]. destruct f; apply E.
Qed.

Lemma all_digits_flags : forall l first i f, all_digits l -> sflags l first i f = (i, f).
Proof.
  induction l as [|c l IH]; intros first i f H; [reflexivity|].
  inversion H as [|? ? Hc Hl]. cbn [sflags].
  rewrite (digit_not_minus c Hc), Hc. apply IH, Hl.
Qed.

Lemma all_digits_nostop l : all_digits l -> nostop l = true.
Proof.
  induction 1 as [|c l Hc _ IH]; [reflexivity|]. simpl.
  rewrite IH, (ordinary_nostop c (digit_ordinary c Hc)). reflexivity.
Qed.

Lemma sflags_ff : forall l first, sflags l first false false = (false, false).
Proof.
  induction l as [|c l IH]; intros first; [reflexivity|]. cbn [sflags].
  destruct (N.eqb c c_minus); [destruct first; apply IH|].
  destruct (is_digit c); [apply IH|]. destruct (N.eqb c c_dot); apply IH.
Qed.

Section Lex.
Variable F : fops.

(* what read_num_ident makes of the characters [n] *)
Definition classify (n : text) : tok :=
  let '(i, f) := sflags n true true false in
  if i && negb (text_eqb n [c_minus]) then
    match parse_i64 n with Some v => TInt v | None => TErr end
  else if f then
    match f_of_dec F n with Some b => TFlt b | None => TErr end
  else TIdent n.

Lemma read_num_ident_classify n rest line pos : nostop n = true -> term rest ->
  exists sp l p, read_num_ident F (n ++ rest) line pos = (classify n, sp, rest, l, p).
Proof.
  intros Hn Ht. unfold read_num_ident, classify.
  rewrite (scan_sflags n rest line pos true true false [] Hn Ht). simpl app.
  destruct (sflags n true true false) as [i f]. cbn [fst snd].
  destruct (i && negb (text_eqb n [c_minus])).
  - destruct (parse_i64 n); eauto.
  - destruct f; [destruct (f_of_dec F n); eauto|eauto].
Qed.

(* the characters [n], when a [term] text follows, are read as the one token [t]; for a *)
(* float and the text print_float gives it, this is what [rd] assumes of the oracle [F]  *)
Definition atom_ok (n : text) (t : tok) : Prop :=
  exists c n', n = c :: n' /\ ordinary c = true /\ nostop n = true /\ classify n = t.

Lemma int_atom z : in_i64 z = true -> atom_ok (print_Z z) (TInt z).
Proof.
  intros Hz. pose proof (parse_print_Z z Hz) as Hp. rewrite print_Z_sign_abs in *.
  destruct (print_N_cons (Z.abs_N z)) as (c & r & E & Hc & Hr). rewrite E in *.
  pose proof (Forall_cons c Hc Hr : all_digits (c :: r)) as Hd.
  destruct (z <? 0)%Z; simpl app in *.
  - (* the sign is skipped by sflags and by nostop *)
    exists c_minus, (c :: r). split; [reflexivity|]. split; [reflexivity|].
    split; [exact (all_digits_nostop _ Hd)|]. unfold classify.
    change (sflags (c_minus :: c :: r) true true false) with (sflags (c :: r) false true false).
    rewrite all_digits_flags by exact Hd. cbn [text_eqb]. rewrite N.eqb_refl, Hp. reflexivity.
  - exists c, r. split; [reflexivity|]. split; [exact (digit_ordinary c Hc)|].
    split; [exact (all_digits_nostop _ Hd)|]. unfold classify.
    rewrite all_digits_flags by exact Hd. cbn [text_eqb]. rewrite (digit_not_minus c Hc), Hp.
    reflexivity.
Qed.

Lemma plain_symbol c n : ordinary c = true -> is_digit c = false -> N.eqb c c_minus = false ->
  nostop (c :: n) = true -> atom_ok (c :: n) (TIdent (c :: n)).
Proof.
  intros Ho Hd Hm Hn. exists c, n. split; [reflexivity|]. split; [exact Ho|]. split; [exact Hn|].
  unfold classify. cbn [sflags]. rewrite Hm, Hd, (ordinary_neq c c_dot eq_refl Ho), sflags_ff.
  reflexivity.
Qed.

(* next_tok on [cs] yields [t] and leaves [rest], from any position (spans are not *)
(* compared) and with any fuel above the length of [cs]                            *)
Definition nt (cs : text) (t : tok) (rest : text) : Prop :=
  forall fuel line pos, List.length cs < fuel ->
    exists sp l p, next_tok F fuel cs line pos = Ok (Some (t, sp, rest, l, p)).

(* the written form of one token *)
Inductive ltok :=
| LAtom (n : text) (t : tok)       (* an identifier or number, read as t *)
| LStr (s : text)
| LOpen | LClose | LQuote | LBtick | LDot | LComma | LSplice.

Definition ltext (k : ltok) : text :=
  match k with
  | LAtom n _ => n
  | LStr s => c_dq :: escape_string s ++ [c_dq]
  | LOpen => [c_lp] | LClose => [c_rp] | LQuote => [c_quote] | LBtick => [c_btick]
  | LDot => [c_dot] | LComma => [c_comma] | LSplice => [c_comma; c_at]
  end.

Definition ltoken (k : ltok) : tok :=
  match k with
  | LAtom _ t => t | LStr s => TStr s
  | LOpen => TOpen | LClose => TClose | LQuote => TQuote | LBtick => TBacktick
  | LDot => TDot | LComma => TComma | LSplice => TSplice
  end.

(* what has to follow the written form for it to be read as that token *)
Definition lnext (k : ltok) (rest : text) : Prop :=
  match k with
  | LAtom n t => atom_ok n t /\ term rest
  | LComma => exists c r, rest = c :: r /\ c <> c_at
  | _ => True
  end.

Lemma nt_atom c n rest : ordinary c = true -> nostop (c :: n) = true -> term rest ->
  nt ((c :: n) ++ rest) (classify (c :: n)) rest.
Proof.
  intros Ho Hn Ht fuel line pos Hf. destruct fuel as [|fuel]; [lia|].
  simpl app. cbn [next_tok]. destruct (advance c line pos) as [l1 p1].
  rewrite !(ordinary_neq c) by first [exact Ho|reflexivity]. cbn [orb].
  destruct (read_num_ident_classify (c :: n) rest line pos Hn Ht) as (sp & l & p & E).
  simpl app in E. rewrite E. eauto.
Qed.

Lemma nt_ltok k rest : lnext k rest -> nt (ltext k ++ rest) (ltoken k) rest.
Proof.
  intros Hk fuel line pos Hf. destruct fuel as [|fuel]; [lia|].
  destruct k; simpl in Hk.
  1: { destruct Hk as [(c & n' & -> & Ho & Hn & <-) Ht]. apply nt_atom; assumption. }
  1: { simpl. rewrite <- app_assoc. simpl app.
       destruct (read_string_escape s line (N.succ pos) line (N.succ pos) [] rest)
         as (l & p & ->).
       eauto. }
  (* the other tokens: the dispatch is evaluated; the column is at least 1, or 2 *)
  all: try destruct Hk as (c & r & -> & Hc%N.eqb_neq).
  all: simpl; rewrite ?Hc; do 3 eexists; first [apply tok1_ok|apply tok2_ok]; lia.
Qed.

Definition wsb (c : cp) : bool := N.eqb c c_nl || N.eqb c c_sp || N.eqb c c_cr || N.eqb c c_tab.
Definition no_nl (body : text) : bool := forallb (fun c => negb (N.eqb c c_nl)) body.

(* a gap: white space characters and whole comments, in any order *)
Inductive isgap : text -> Prop :=
| gap_nil : isgap []
| gap_ws c g : wsb c = true -> isgap g -> isgap (c :: g)
| gap_comment body g : no_nl body = true -> isgap g -> isgap (c_semi :: body ++ c_nl :: g).

(* what may follow the last token: a gap, possibly ending in a comment without a line end *)
Inductive istrail : text -> Prop :=
| trail_nil : istrail []
| trail_ws c g : wsb c = true -> istrail g -> istrail (c :: g)
| trail_comment body g : no_nl body = true -> istrail g -> istrail (c_semi :: body ++ c_nl :: g)
| trail_open body : no_nl body = true -> istrail (c_semi :: body).

Lemma skip_comment_app : forall body tail line pos, no_nl body = true ->
  skip_comment (body ++ tail) line pos = let '(l, p) := walk body line pos in skip_comment tail l p.
Proof.
  induction body as [|c body IH]; intros tail line pos Hb; [reflexivity|].
  simpl in *. apply andb_true_iff in Hb as [Hc Hb]. apply negb_true_iff in Hc.
  destruct (advance c line pos) as [l1 p1]. rewrite Hc. apply IH, Hb.
Qed.

Lemma skip_comment_body : forall body rest line pos, no_nl body = true ->
  exists l p, skip_comment (body ++ c_nl :: rest) line pos = Some (rest, l, p).
Proof.
  intros body rest line pos Hb. rewrite skip_comment_app by exact Hb.
  destruct (walk body line pos) as [l p]. simpl. eauto.
Qed.

Lemma skip_comment_open : forall body line pos,
  no_nl body = true -> skip_comment body line pos = None.
Proof.
  intros body line pos Hb. rewrite <- (app_nil_r body), skip_comment_app by exact Hb.
  destruct (walk body line pos) as [l p]. reflexivity.
Qed.

Lemma next_tok_ws fuel c r line pos : wsb c = true ->
  exists l p, next_tok F (S fuel) (c :: r) line pos = next_tok F fuel r l p.
Proof.
  intros Hc. cbn [next_tok]. destruct (advance c line pos) as [l1 p1].
  unfold wsb in Hc. rewrite Hc. eauto.
Qed.

Lemma next_tok_comment fuel body r line pos : no_nl body = true ->
  exists l p, next_tok F (S fuel) (c_semi :: body ++ c_nl :: r) line pos = next_tok F fuel r l p.
Proof.
  intros Hb. simpl.
  destruct (skip_comment_body body r line (N.succ pos) Hb) as (l & p & ->). eauto.
Qed.

Lemma nt_ws c cs t rest : wsb c = true -> nt cs t rest -> nt (c :: cs) t rest.
Proof.
  intros Hc H fuel line pos Hf. destruct fuel as [|fuel]; [lia|].
  destruct (next_tok_ws fuel c cs line pos Hc) as (l & p & ->). apply H. simpl in Hf. lia.
Qed.

Lemma nt_comment body cs t rest : no_nl body = true ->
  nt cs t rest -> nt (c_semi :: body ++ c_nl :: cs) t rest.
Proof.
  intros Hb H fuel line pos Hf. destruct fuel as [|fuel]; [lia|].
  destruct (next_tok_comment fuel body cs line pos Hb) as (l & p & ->).
  apply H. simpl in Hf. rewrite app_length in Hf. simpl in Hf. lia.
Qed.

Lemma nt_gap g : isgap g -> forall cs t rest, nt cs t rest -> nt (g ++ cs) t rest.
Proof.
  induction 1 as [|c g Hc _ IH|body g Hb _ IH]; intros cs t rest H; simpl.
  - exact H.
  - apply nt_ws; [exact Hc|]. apply IH. exact H.
  - rewrite <- app_assoc. apply nt_comment; [exact Hb|]. apply IH. exact H.
Qed.

Lemma trail_end g : istrail g ->
  forall fuel line pos, List.length g < fuel -> next_tok F fuel g line pos = Ok None.
Proof.
  induction 1 as [|c g Hc _ IH|body g Hb _ IH|body Hb]; intros fuel line pos Hf;
    (destruct fuel as [|fuel]; [lia|]).
  - reflexivity.
  - destruct (next_tok_ws fuel c g line pos Hc) as (l & p & ->). apply IH. simpl in Hf. lia.
  - destruct (next_tok_comment fuel body g line pos Hb) as (l & p & ->).
    apply IH. simpl in Hf. rewrite app_length in Hf. simpl in Hf. lia.
  - simpl. rewrite skip_comment_open by assumption. reflexivity.
Qed.

(* [nt] iterated: the tokens [ts] are read off the first text and leave the last *)
Inductive steps : text -> list tok -> text -> Prop :=
| steps_nil cs : steps cs [] cs
| steps_cons cs t cs' ts cs'' : nt cs t cs' -> steps cs' ts cs'' -> steps cs (t :: ts) cs''.

Lemma steps_of_empty ts rest : steps [] ts rest -> ts = [].
Proof.
  inversion 1 as [|? t cs' ? ? Hnt]; [reflexivity|].
  destruct (Hnt 1 1%N 1%N (Nat.lt_succ_diag_r _)) as (sp & l & p & E). discriminate E.
Qed.

Lemma steps_app a ts1 b ts2 c : steps a ts1 b -> steps b ts2 c -> steps a (ts1 ++ ts2) c.
Proof. induction 1; intros H2; [exact H2|]. econstructor; eauto. Qed.

Lemma steps_sp cs ts rest : ts <> [] -> steps cs ts rest -> steps (c_sp :: cs) ts rest.
Proof.
  intros Hne H. destruct H; [congruence|]. econstructor; [apply nt_ws; [reflexivity|eassumption]|assumption].
Qed.

Lemma steps_ltok k cs ts rest :
  lnext k cs -> steps cs ts rest -> steps (ltext k ++ cs) (ltoken k :: ts) rest.
Proof. intros Hk H. econstructor; [apply nt_ltok, Hk|exact H]. Qed.

(* the values whose printed text is read back *)
Fixpoint rd (v : sx) : Prop :=
  match v with
  | Nil | T | Str _ => True
  | Int z => in_i64 z = true
  | Flt b => atom_ok (print_float F b) (TFlt b)
  | Sym n => atom_ok n (TIdent n) /\ n <> name_t /\ n <> name_nil
  | Cons a d => rd a /\ rd d
  | Quote x | Bq x | Splice x => rd x
  | Unq x => rd x /\ List.hd c_sp (print F x) <> c_at
  | _ => False
  end.

Lemma rd_rdata : forall v, rd v -> rdata v.
Proof. induction v; simpl; tauto. Qed.

Definition ptail : sx -> text :=
  fix tl (d : sx) : text :=
    match d with
    | Nil => [c_rp]
    | Cons a' d' => c_sp :: print F a' ++ tl d'
    | o => s2t " . " ++ print F o ++ [c_rp]
    end.

Lemma print_cons a d : print F (Cons a d) = c_lp :: print F a ++ ptail d.
Proof. reflexivity. Qed.

Lemma ptail_atom o : listp o = false -> ptail o = c_sp :: c_dot :: c_sp :: print F o ++ [c_rp].
Proof. destruct o; intros H; try discriminate H; reflexivity. Qed.

(* the printed text lexes to the tokens: of [v] as a value, of [d] as the rest of a list *)
Definition A_lex (v : sx) : Prop :=
  rd v -> forall rest, term rest -> steps (print F v ++ rest) (toks v) rest.
Definition B_lex (d : sx) : Prop :=
  rd d -> forall rest, steps (ptail d ++ rest) (ttail d) rest.

Lemma term_ptail d rest : term (ptail d ++ rest).
Proof.
  right. destruct (listp d) eqn:Hl; [destruct d; try discriminate Hl|rewrite (ptail_atom d Hl)];
    simpl; eauto.
Qed.

Lemma atom_steps n t rest : atom_ok n t -> term rest -> steps (n ++ rest) [t] rest.
Proof. intros Ha Ht. apply (steps_ltok (LAtom n t)); [split; assumption|constructor]. Qed.

(* [A_lex o] repeated: [apply] leaves lex_value one goal *)
Lemma lex_dotted o : listp o = false -> A_lex o -> A_lex o /\ B_lex o.
Proof.
  intros Hl Ao. split; [exact Ao|]. intros Ho rest. rewrite (ptail_atom o Hl), (ttail_atom o Hl). simpl app.
  apply steps_sp; [discriminate|]. apply (steps_ltok LDot); [exact I|].
  apply steps_sp; [intros [_ E]%app_eq_nil; discriminate|].
  rewrite <- app_assoc. eapply steps_app; [|apply (steps_ltok LClose); [exact I|constructor]].
  apply (Ao Ho). right. exists c_rp, rest. split; reflexivity.
Qed.

Lemma lex_cons a d : A_lex a -> B_lex d -> A_lex (Cons a d) /\ B_lex (Cons a d).
Proof.
  intros Aa Bd.
  assert (Hel : forall rest, rd a -> rd d ->
            steps ((print F a ++ ptail d) ++ rest) (toks a ++ ttail d) rest).
  { intros rest Ha Hd. rewrite <- app_assoc.
    eapply steps_app; [apply (Aa Ha), term_ptail|apply (Bd Hd)]. }
  split; intros [Ha Hd] rest.
  - intros _. rewrite print_cons, toks_cons.
    apply (steps_ltok LOpen ((print F a ++ ptail d) ++ rest)); [exact I|]. apply Hel; assumption.
  - change (ptail (Cons a d) ++ rest) with (c_sp :: (print F a ++ ptail d) ++ rest).
    apply steps_sp; [intros [E _]%app_eq_nil; exact (toks_nonempty a E)|]. apply Hel; assumption.
Qed.

Lemma lex_value : forall v, A_lex v /\ B_lex v.
Proof.
  induction v;
    try (apply lex_dotted; [reflexivity|]; intros Hv rest Ht; simpl in Hv; try contradiction).
  (* all but Nil and Cons start after these intros *)
  - (* Nil *) split.
    + intros _ rest Ht. apply (atom_steps name_nil); [|exact Ht].
      exists c_n, [105%N; 108%N]. repeat split; reflexivity.
    + intros _ rest. apply (steps_ltok LClose); [exact I|constructor].
  - (* T *) apply (atom_steps name_t); [|exact Ht]. exists c_t, []. repeat split; reflexivity.
  - (* Int *) apply atom_steps; [apply int_atom|]; assumption.
  - (* Flt *) apply atom_steps; assumption.
  - (* Str *) apply (steps_ltok (LStr s)); [exact I|constructor].
  - (* Sym *) apply atom_steps; [apply Hv|assumption].
  - (* Cons *) apply lex_cons; [apply IHv1|apply IHv2].
  - (* Quote *) apply (steps_ltok LQuote); [exact I|]. apply IHv; assumption.
  - (* Bq *) apply (steps_ltok LBtick); [exact I|]. apply IHv; assumption.
  - (* Unq *) destruct Hv as [Hx Hh]. apply (steps_ltok LComma (print F v ++ rest)); [|apply IHv; assumption].
    destruct (print F v) as [|c r] eqn:Ep; [|exists c, (r ++ rest); split; [reflexivity|exact Hh]].
    pose proof (proj1 IHv Hx [] (or_introl eq_refl)) as Hs. rewrite Ep in Hs.
    destruct (toks_nonempty v (steps_of_empty _ _ Hs)).
  - (* Splice *) apply (steps_ltok LSplice); [exact I|]. apply IHv; assumption.
Qed.

(* lex_value under a size bound that is not needed *)
Lemma lex_all : forall k v, sx_size v < k -> A_lex v /\ B_lex v.
Proof. intros k v _. apply lex_value. Qed.

(* a layout: a gap before each token and a trail after the last one *)
Fixpoint render (items : list (text * ltok)) (trail : text) : text :=
  match items with
  | [] => trail
  | (g, k) :: r => g ++ ltext k ++ render r trail
  end.

(* the gaps are gaps, and each token is followed by what [lnext] asks *)
Fixpoint wfl (items : list (text * ltok)) (trail : text) : Prop :=
  match items with
  | [] => istrail trail
  | (g, k) :: r =>
      isgap g /\ wfl r trail /\
      match k with
      | LAtom n t => atom_ok n t /\ term (render r trail)
      | LComma => exists c rest, render r trail = c :: rest /\ c <> c_at
      | _ => True
      end
  end.

Lemma wfl_trail items trail : wfl items trail -> istrail trail.
Proof. induction items as [|[g k] r IH]; simpl; [auto|]. intros (_ & H & _). exact (IH H). Qed.

(* [steps cs ts e] with the end as a parameter *)
Inductive steps_to (e : text) : text -> list tok -> Prop :=
| st_nil : steps_to e e []
| st_cons cs t cs' ts : nt cs t cs' -> steps_to e cs' ts -> steps_to e cs (t :: ts).

Lemma steps_steps_to cs ts e : steps cs ts e -> steps_to e cs ts.
Proof. induction 1; econstructor; eassumption. Qed.

Lemma layout_steps : forall items trail, wfl items trail ->
  steps_to trail (render items trail) (map (fun it => ltoken (snd it)) items).
Proof.
  induction items as [|[g k] r IH]; intros trail H; simpl in *.
  - constructor.
  - destruct H as (Hg & Hr & Hk). econstructor; [|apply IH; exact Hr].
    apply nt_gap; [exact Hg|]. apply nt_ltok. exact Hk.
Qed.

Lemma steps_to_tokenize e : istrail e ->
  forall cs ts, steps_to e cs ts ->
  forall fuel line pos, List.length cs < fuel ->
  exists tsp, tokenize F fuel cs line pos = Ok tsp /\ map fst tsp = ts.
Proof.
  intros He cs ts H.
  induction H as [|cs t cs' ts Hnt Hs IH]; intros fuel line pos Hf;
    (destruct fuel; [lia|]); cbn [tokenize].
  - exists []. rewrite (trail_end e He) by lia. split; reflexivity.
  - (* the step leaves fewer characters, so the fuel still suffices *)
    pose proof (next_tok_good F (S (List.length cs)) cs line pos (Nat.lt_succ_diag_r _)) as G.
    destruct (Hnt (S (List.length cs)) line pos (Nat.lt_succ_diag_r _)) as (sp & l & p & E).
    rewrite E in *. simpl in G.
    destruct (IH fuel l p ltac:(lia)) as (tsp & -> & Em).
    exists ((t, sp) :: tsp). split; [reflexivity|]. simpl. f_equal. assumption.
Qed.

Lemma steps_to_read fl : t_interned fl = false -> nil_interned fl = false ->
  forall v e cs, rdata v -> istrail e -> steps_to e cs (toks v) ->
  exists a, read_ax F fl cs = Ok [a] /\ strip a = v.
Proof.
  intros Ht Hn v e cs Hv He Hs. unfold read_ax.
  destruct (steps_to_tokenize e He _ _ Hs (S (List.length cs)) 1%N 1%N
              (Nat.lt_succ_diag_r _)) as (tsp & -> & Em).
  destruct (parse_inverts_value fl Ht Hn v Hv (S (2 * List.length tsp)) tsp [] Em ltac:(lia))
    as (a & Ep & Es).
  rewrite app_nil_r in Ep. exists a. split; [|exact Es].
  destruct tsp as [|x tsp]; [destruct (toks_nonempty v (eq_sym Em))|].
  cbn [parse_all]. rewrite Ep. reflexivity.
Qed.

(* C09: reading the printed text of a value gives the value back *)
Theorem print_read fl : t_interned fl = false -> nil_interned fl = false ->
  forall v, rd v -> exists a, read_ax F fl (print F v) = Ok [a] /\ strip a = v.
Proof.
  intros Ht Hn v Hv.
  apply (steps_to_read fl Ht Hn v [] _ (rd_rdata v Hv) trail_nil), steps_steps_to.
  rewrite <- (app_nil_r (print F v)) at 1. apply (lex_value v); [exact Hv|left; reflexivity].
Qed.

(* C09: a text that writes the tokens of a value in any layout reads as that value *)
Theorem layout_read fl : t_interned fl = false -> nil_interned fl = false ->
  forall v items trail, rdata v -> wfl items trail ->
  map (fun it => ltoken (snd it)) items = toks v ->
  exists a, read_ax F fl (render items trail) = Ok [a] /\ strip a = v.
Proof.
  intros Ht Hn v items trail Hv Hw Hm.
  apply (steps_to_read fl Ht Hn v trail _ Hv (wfl_trail _ _ Hw)).
  rewrite <- Hm. apply layout_steps, Hw.
Qed.

End Lex.
