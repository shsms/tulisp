(* C09: the parser inverts the token-level printer [toks]; a string token is   *)
(* read back from its escaped characters.                                      *)
From TL Require Import Base.Base Model.Reader Model.Printer.
From TL Require Import Proofs.ReaderTotal.
Local Open Scope nat_scope.
Local Open Scope list_scope.

Fixpoint toks (v : sx) : list tok :=
  match v with
  | Nil => [TIdent name_nil] | T => [TIdent name_t]
  | Int z => [TInt z] | Flt b => [TFlt b] | Str s => [TStr s] | Sym n => [TIdent n]
  | Cons a d =>
      TOpen :: toks a ++
      (fix tl (d : sx) : list tok :=
         match d with
         | Nil => [TClose]
         | Cons a' d' => toks a' ++ tl d'
         | o => TDot :: toks o ++ [TClose]
         end) d
  | Quote v => TQuote :: toks v | Bq v => TBacktick :: toks v
  | Unq v => TComma :: toks v | Splice v => TSplice :: toks v
  | _ => [TErr]
  end.

Definition ttail : sx -> list tok :=
  fix tl (d : sx) : list tok :=
    match d with
    | Nil => [TClose]
    | Cons a' d' => toks a' ++ tl d'
    | o => TDot :: toks o ++ [TClose]
    end.

Lemma toks_cons a d : toks (Cons a d) = TOpen :: ttail (Cons a d).
Proof. reflexivity. Qed.

(* the data values of the property: nil, t, integers, floats, strings, symbols *)
(* (other than the names t and nil), proper and dotted lists, quote marks       *)
Fixpoint rdata (v : sx) : Prop :=
  match v with
  | Nil | T | Int _ | Flt _ | Str _ => True
  | Sym n => n <> name_t /\ n <> name_nil
  | Cons a d => rdata a /\ rdata d
  | Quote x | Bq x | Unq x | Splice x => rdata x
  | _ => False
  end.

Lemma ttail_atom o : listp o = false -> ttail o = TDot :: toks o ++ [TClose].
Proof. destruct o; intros H; try discriminate H; reflexivity. Qed.

Lemma toks_head v : exists t r, toks v = t :: r /\ t <> TClose /\ t <> TDot.
Proof. destruct v; simpl; (do 2 eexists; split; [reflexivity|split; discriminate]). Qed.

Lemma toks_nonempty v : toks v <> [].
Proof. destruct v; intro E; discriminate E. Qed.

Lemma ttail_nonempty d : ttail d <> [].
Proof.
  destruct d; simpl; try (intro E; discriminate E).
  intro E. apply app_eq_nil in E as [E _]. exact (toks_nonempty _ E).
Qed.

Lemma map_fst_cons {A B} (l : list (A * B)) x r :
  map fst l = x :: r -> exists sp l', l = (x, sp) :: l' /\ map fst l' = r.
Proof. destruct l as [|[a b] l]; intros H; inversion H. eauto. Qed.

Lemma strip_list_none xs sp : strip (AList xs None sp) = of_list (map strip xs) Nil.
Proof. simpl. induction xs as [|x xs IH]; simpl; [reflexivity|]. rewrite IH. reflexivity. Qed.
Lemma strip_list_some xs t sp : xs <> [] ->
  strip (AList xs (Some t) sp) = of_list (map strip xs) (strip t).
Proof.
  intros Hx. destruct xs as [|x0 xs]; [congruence|]. clear Hx. simpl. f_equal.
  induction xs as [|x xs IH]; simpl; [reflexivity|]. rewrite IH. reflexivity.
Qed.

Section Parse.
Variable fl : rflags.
Hypothesis t_free : t_interned fl = false.
Hypothesis nil_free : nil_interned fl = false.

Lemma ident_nil sp : ident_value fl name_nil sp = ANil sp.
Proof. unfold ident_value. rewrite nil_free. reflexivity. Qed.
Lemma ident_t sp : ident_value fl name_t sp = AT sp.
Proof. unfold ident_value. rewrite t_free. reflexivity. Qed.
Lemma ident_sym n sp : n <> name_t -> n <> name_nil -> ident_value fl n sp = ASym n sp.
Proof.
  intros H1 H2. unfold ident_value.
  destruct (text_eqb n name_t) eqn:E1; [apply text_eqb_eq in E1; contradiction|].
  destruct (text_eqb n name_nil) eqn:E2; [apply text_eqb_eq in E2; contradiction|].
  reflexivity.
Qed.

(* [v] as a value: whatever spans the tokens of v carry and whatever follows them *)
Definition A_stmt (v : sx) : Prop :=
  forall fuel ts rest, map fst ts = toks v -> List.length ts < fuel ->
  exists a, parse_value fl fuel (ts ++ rest) = Ok (Some (a, rest)) /\ strip a = v.
(* [d] as the rest of a list of which the elements [acc] have been read; `( . x)` *)
(* does not read as a dotted pair, so a dotted tail needs an element before it     *)
Definition B_stmt (d : sx) : Prop :=
  forall fuel ts rest start acc, map fst ts = ttail d -> List.length ts < fuel ->
  acc <> [] \/ listp d = true ->
  exists a, parse_list fl fuel (ts ++ rest) start acc = Ok (a, rest) /\
            strip a = of_list (map strip (rev acc)) d.

Lemma A_token v t (a : span -> ax) :
  toks v = [t] ->
  (forall f sp r, parse_value fl (S f) ((t, sp) :: r) = Ok (Some (a sp, r))) ->
  (forall sp, strip (a sp) = v) -> A_stmt v.
Proof.
  intros Et Ep Es fuel ts rest Hts Hf. rewrite Et in Hts.
  apply map_fst_cons in Hts as (sp & l' & -> & Hl). apply map_eq_nil in Hl. subst l'.
  destruct fuel as [|f]; [lia|]. exists (a sp). split; [apply Ep|apply Es].
Qed.

Lemma A_mark v t (mk : ax -> span -> ax) (q : sx -> sx) :
  toks (q v) = t :: toks v ->
  (forall f sp r, parse_value fl (S f) ((t, sp) :: r) =
                  match parse_value fl f r with
                  | Ok (Some (x, r2)) => Ok (Some (mk x sp, r2))
                  | Ok None => Err EParse
                  | Err e => Err e | Panic s => Panic s | Fuel => Fuel
                  end) ->
  (forall x sp, strip (mk x sp) = q (strip x)) -> A_stmt v -> A_stmt (q v).
Proof.
  intros Et Ep Es IH fuel ts rest Hts Hf. rewrite Et in Hts.
  apply map_fst_cons in Hts as (sp & l' & -> & Hl). destruct fuel as [|f]; [lia|]. simpl in Hf.
  destruct (IH f l' rest Hl ltac:(lia)) as (a & Ea & Sa).
  exists (mk a sp). simpl app. rewrite Ep, Ea, Es, Sa. auto.
Qed.

Lemma A_cons a d : B_stmt (Cons a d) -> A_stmt (Cons a d).
Proof.
  intros IH fuel ts rest Hts Hf. rewrite toks_cons in Hts.
  apply map_fst_cons in Hts as (sp & ts' & -> & Hts'). destruct fuel as [|f]; [lia|]. simpl in Hf.
  destruct (IH f ts' rest sp [] Hts' ltac:(lia) (or_intror eq_refl)) as (al & El & Sl).
  simpl app. rewrite parse_value_open, El. exists al. split; [reflexivity|exact Sl].
Qed.

Lemma B_nil : B_stmt Nil.
Proof.
  intros fuel ts rest start acc Hts Hf _.
  apply map_fst_cons in Hts as (esp & l' & -> & Hl). apply map_eq_nil in Hl. subst l'.
  destruct fuel as [|f]; [lia|]. eexists. split; [reflexivity|].
  rewrite strip_list_none, map_rev. reflexivity.
Qed.

Lemma B_cons a d : A_stmt a -> B_stmt d -> B_stmt (Cons a d).
Proof.
  intros IHa IHd fuel ts rest start acc Hts Hf _.
  change (ttail (Cons a d)) with (toks a ++ ttail d) in Hts.
  apply map_eq_app in Hts as (ta & td & -> & Hta & Htd).
  destruct (toks_head a) as (t0 & r0 & Et & Hn1 & Hn2).
  pose proof Hta as Hta'. rewrite Et in Hta'. apply map_fst_cons in Hta' as (sp0 & ta' & -> & _).
  destruct fuel as [|f]; [lia|]. rewrite app_length in Hf.
  (* both parts are non-empty, so each is short enough for one unit of fuel less *)
  assert (Hd1 : 0 < List.length td).
  { destruct td; [symmetry in Htd; destruct (ttail_nonempty _ Htd)|simpl; lia]. }
  destruct (IHa f ((t0, sp0) :: ta') (td ++ rest) Hta ltac:(simpl in *; lia)) as (x & Ex & Sx).
  destruct (IHd f td rest start (x :: acc) Htd ltac:(simpl in *; lia) ltac:(left; discriminate))
    as (al & El & Sl).
  rewrite <- app_assoc. simpl app in *. rewrite parse_list_elem, Ex, El by assumption.
  exists al. split; [reflexivity|].
  rewrite Sl. simpl rev. rewrite map_app. simpl map. rewrite Sx, of_list_app. reflexivity.
Qed.

(* [A_stmt o] repeated: [apply] leaves parse_inverts one goal *)
Lemma B_dotted o : listp o = false -> A_stmt o -> A_stmt o /\ B_stmt o.
Proof.
  intros Hl IH. split; [exact IH|].
  intros fuel ts rest start acc Hts Hf [Hacc|Hacc]; [|congruence].
  rewrite ttail_atom in Hts by exact Hl.
  apply map_fst_cons in Hts as (sp & l' & -> & Hts).
  apply map_eq_app in Hts as (to & tc & -> & Hto & Htc).
  apply map_fst_cons in Htc as (esp & l2 & -> & Hl2). apply map_eq_nil in Hl2. subst l2.
  destruct fuel as [|f]; [lia|]. simpl in Hf. rewrite app_length in Hf.
  destruct (IH f to ((TClose, esp) :: rest) Hto ltac:(lia)) as (a & Ea & Sa).
  simpl app. rewrite parse_list_dot, <- app_assoc. simpl app. rewrite Ea.
  eexists. split; [reflexivity|]. rewrite strip_list_some, map_rev, Sa; [reflexivity|].
  intro E. apply Hacc. rewrite <- (rev_involutive acc), E. reflexivity.
Qed.

Theorem parse_inverts : forall v, rdata v -> A_stmt v /\ B_stmt v.
Proof.
  induction v; simpl; intros Hd; try contradiction;
    try (apply B_dotted; [reflexivity|]).
  (* all but Nil and Cons are left with their A_stmt *)
  - (* Nil *) split; [|exact B_nil].
    apply (A_token Nil (TIdent name_nil) (ident_value fl name_nil)); try reflexivity.
    intros sp. rewrite ident_nil. reflexivity.
  - (* T *) apply (A_token T (TIdent name_t) (ident_value fl name_t)); try reflexivity.
    intros sp. rewrite ident_t. reflexivity.
  - (* Int *) apply (A_token (Int z) (TInt z) (AInt z)); reflexivity.
  - (* Flt *) apply (A_token (Flt bits) (TFlt bits) (AFlt bits)); reflexivity.
  - (* Str *) apply (A_token (Str s) (TStr s) (AStr s)); reflexivity.
  - (* Sym *) apply (A_token (Sym n) (TIdent n) (ident_value fl n)); try reflexivity.
    intros sp. rewrite ident_sym by apply Hd. reflexivity.
  - (* Cons *) destruct Hd as [H1 H2]. destruct (IHv1 H1) as [A1 _], (IHv2 H2) as [_ B2].
    assert (B : B_stmt (Cons v1 v2)) by (apply B_cons; assumption).
    split; [apply A_cons|]; exact B.
  - (* Quote *) apply (A_mark v TQuote AQuote Quote); try reflexivity. apply IHv, Hd.
  - (* Bq *) apply (A_mark v TBacktick ABq Bq); try reflexivity. apply IHv, Hd.
  - (* Unq *) apply (A_mark v TComma AUnq Unq); try reflexivity. apply IHv, Hd.
  - (* Splice *) apply (A_mark v TSplice ASplice Splice); try reflexivity. apply IHv, Hd.
Qed.

Theorem parse_inverts_value v : rdata v -> A_stmt v.
Proof. intros Hd. apply parse_inverts, Hd. Qed.
End Parse.

Lemma escape_cons c s : escape_string (c :: s) = escape_string [c] ++ escape_string s.
Proof. simpl. destruct (N.eqb c c_dq || N.eqb c c_bslash); reflexivity. Qed.

Lemma read_string_char c r line pos sl sc acc : exists l p,
  read_string (escape_string [c] ++ r) line pos sl sc acc = read_string r l p sl sc (c :: acc).
Proof.
  simpl escape_string. destruct (N.eqb c c_dq || N.eqb c c_bslash) eqn:Ee.
  - apply orb_true_iff in Ee as [Ee|Ee]; apply N.eqb_eq in Ee; subst c; simpl; eauto.
  - apply orb_false_iff in Ee as [E1 E2]. simpl. destruct (advance c line pos) as [l1 p1].
    rewrite E2, E1. eauto.
Qed.

Lemma read_string_escape : forall s line pos sl sc acc rest,
  exists l p,
    read_string (escape_string s ++ c_dq :: rest) line pos sl sc acc
    = Ok (Some (TStr (rev acc ++ s), Build_span sl sc l p, rest, l, p)).
Proof.
  induction s as [|c s IH]; intros line pos sl sc acc rest.
  - simpl. destruct (advance c_dq line pos) as [l1 p1]. rewrite app_nil_r. eauto.
  - rewrite escape_cons, <- app_assoc.
    destruct (read_string_char c (escape_string s ++ c_dq :: rest) line pos sl sc acc)
      as (l1 & p1 & ->).
    destruct (IH l1 p1 sl sc (c :: acc) rest) as (l & p & ->).
    simpl. rewrite <- app_assoc. eauto.
Qed.
