(* C19: several contexts; load = evaluate.                                   *)
From TL Require Import Base.Base Model.Reader Model.Printer Model.Store Model.Eval.
Local Open Scope nat_scope.
Local Open Scope list_scope.

Section World.
Variable F : fops.
Variable fuel : nat.

(* a world is a list of contexts; a request names the context it runs in:    *)
(* what the OCaml driver and the Rust harness do with an array of contexts    *)
Definition world := list st.
Definition request := (nat * text)%type.

Fixpoint upd (w : world) (i : nat) (s : st) : world :=
  match w, i with
  | [], _ => []
  | _ :: r, O => s :: r
  | x :: r, S i' => x :: upd r i' s
  end.

Definition wstep (w : world) (q : request) : world * option (res sx) :=
  match nth_error w (fst q) with
  | Some s => let '(r, s') := eval_string F fuel (snd q) s in (upd w (fst q) s', Some r)
  | None => (w, None)
  end.

Fixpoint wrun (w : world) (qs : list request) : world * list (nat * option (res sx)) :=
  match qs with
  | [] => (w, [])
  | q :: r => let '(w1, o) := wstep w q in
              let '(w2, os) := wrun w1 r in (w2, (fst q, o) :: os)
  end.

(* one context alone *)
Fixpoint crun (s : st) (ts : list text) : st * list (res sx) :=
  match ts with
  | [] => (s, [])
  | t :: r => let '(o, s1) := eval_string F fuel t s in
              let '(s2, os) := crun s1 r in (s2, o :: os)
  end.

Lemma nth_upd_same : forall w i s, i < List.length w -> nth_error (upd w i s) i = Some s.
Proof.
  induction w as [|x w IH]; intros i s Hi; simpl in *; [lia|].
  destruct i; [reflexivity|]. apply IH. lia.
Qed.
Lemma nth_upd_other : forall w i j s, i <> j -> nth_error (upd w i s) j = nth_error w j.
Proof.
  induction w as [|x w IH]; intros i j s Hij; [reflexivity|].
  destruct i, j; try reflexivity; [congruence|]. apply IH. congruence.
Qed.
Lemma upd_length : forall w i s, List.length (upd w i s) = List.length w.
Proof. induction w as [|x w IH]; intros [|i] s; simpl; auto. Qed.

Theorem step_isolated w q j : j <> fst q -> nth_error (fst (wstep w q)) j = nth_error w j.
Proof.
  intros Hj. unfold wstep. destruct (nth_error w (fst q)) as [s|]; [|reflexivity].
  destruct (eval_string F fuel (snd q) s) as [r s']. apply nth_upd_other. congruence.
Qed.

Definition mine (i : nat) (qs : list request) : list text :=
  map snd (filter (fun q => Nat.eqb (fst q) i) qs).
Definition outs_of (i : nat) (os : list (nat * option (res sx))) : list (res sx) :=
  flat_map (fun o => if Nat.eqb (fst o) i then match snd o with Some r => [r] | None => [] end else []) os.

(* for every interleaving: what context i answers, and the state it ends in, *)
(* are those of running its own requests alone                                 *)
Theorem isolation : forall qs w i s, nth_error w i = Some s ->
  let '(w', os) := wrun w qs in
  let '(s', rs) := crun s (mine i qs) in
  nth_error w' i = Some s' /\ outs_of i os = rs.
Proof.
  induction qs as [|q qs IH]; intros w i s Hs; [split; [assumption|reflexivity]|].
  unfold mine. cbn [wrun filter].
  destruct (Nat.eqb (fst q) i) eqn:Ei.
  - (* a request of context i: the context steps as it would alone *)
    apply Nat.eqb_eq in Ei. subst i. unfold wstep. rewrite Hs. cbn [map crun].
    destruct (eval_string F fuel (snd q) s) as [r s'].
    assert (Hs' : nth_error (upd w (fst q) s') (fst q) = Some s')
      by (apply nth_upd_same, nth_error_Some; congruence).
    specialize (IH _ _ _ Hs'). destruct (wrun _ qs) as [w2 os]. destruct (crun s' _) as [s2 rs].
    destruct IH as [A <-]. split; [exact A|].
    cbn [outs_of flat_map fst snd]. rewrite Nat.eqb_refl. reflexivity.
  - (* a request of another context: i keeps its state and says nothing *)
    pose proof (step_isolated w q i (not_eq_sym (proj1 (Nat.eqb_neq _ _) Ei))) as Hi. rewrite Hs in Hi.
    destruct (wstep w q) as [w1 o]. cbn [fst] in Hi. specialize (IH _ _ _ Hi).
    destruct (wrun w1 qs) as [w2 os]. destruct (crun s _) as [s2 rs].
    destruct IH as [A <-]. split; [exact A|].
    cbn [outs_of flat_map fst]. rewrite Ei. reflexivity.
Qed.

Definition bump_files (s : st) : st :=
  {| store := store s; next_id := next_id s; log := log s; steps := steps s;
     fail_at := fail_at s; htabs := htabs s; flags := flags s; files := files s;
     nfiles := N.succ (nfiles s); mlog := mlog s; glog := glog s |}.

Theorem eval_file_is_eval_string name body s :
  find (fun p => text_eqb (fst p) name) (files s) = Some (name, body) ->
  eval_file F fuel name s = eval_string F fuel body (bump_files s).
Proof.
  intros Hf. unfold eval_file, eval_string, bind, find_file. rewrite Hf. simpl.
  destruct (run_body F (run F fuel) body _) as [[v|e|n|] s1]; reflexivity.
Qed.

Theorem eval_file_missing name s :
  find (fun p => text_eqb (fst p) name) (files s) = None ->
  eval_file F fuel name s = (Err EUndef, s).
Proof. intros Hf. unfold eval_file, bind, find_file. rewrite Hf. reflexivity. Qed.

(* also for nested loads: the loaded text is evaluated by the same run_body *)
Theorem load_is_eval_string f name s :
  apply_prim F (run F f) (run_body F (run F f)) PLoad (Cons (Str name) Nil) s =
  match run F f (TEval (Str name)) s with
  | (Ok (Str n), s0) =>
      match find (fun p => text_eqb (fst p) n) (files s0) with
      | Some p => eval_string F f (snd p) (bump_files s0)
      | None => (Err EUndef, s0)
      end
  | (Ok _, s0) => (Err EType, s0)
  | (Err e, s0) => (Err e, s0) | (Panic n, s0) => (Panic n, s0) | (Fuel, s0) => (Fuel, s0)
  end.
Proof.
  cbn [apply_prim]. unfold arg_req, bind, ev.
  destruct (run F f (TEval (Str name)) s) as [[v|e|n|] s0]; try reflexivity.
  destruct v; try reflexivity.
  simpl. unfold find_file. destruct (find _ (files s0)) as [p|]; [|reflexivity].
  unfold eval_string. destruct (run_body F (run F f) (snd p) _) as [[v'|e'|n'|] s9]; reflexivity.
Qed.

End World.
