(* The inner loops that Model/Eval.v writes as anonymous [fix]es, under names, each   *)
(* with the equation that folds it (the spine walk of TExpand needs none: step meets  *)
(* it by conversion); those of [/] and mark_tail are not here: proofs take them from  *)
(* the goal.  Beside them the induction principle of [ax].                            *)
From TL Require Import Base.Base Model.Reader Model.Printer Model.Store Model.Eval.
Local Open Scope list_scope.

Definition bq_spine (rec : task -> M sx) :=
  fix spine (l : sx) (acc : sx) {struct l} : M sx :=
    match l with
    | Cons a d =>
        acc1 <- match a with
                | Unq v => r <- ev rec v ;; lift (push2 acc r)
                | Splice v => r <- ev rec v ;; lift (append2 acc r)
                | _ => r <- eval_bq rec a ;; lift (push2 acc r)
                end ;;
        match d with
        | Unq v => r <- ev rec v ;; lift (append2 acc1 r)
        | Cons _ _ => spine d acc1
        | o => lift (append2 acc1 o)
        end
    | _ => ret acc
    end.

Lemma eval_bq_cons rec a d : eval_bq rec (Cons a d) = bq_spine rec (Cons a d) Nil.
Proof. reflexivity. Qed.

Definition cap_spine (excl : list sx) :=
  fix spine (l : sx) (caps : cap_list) (acc : list sx) {struct l} : M (sx * cap_list) :=
    match l with
    | Cons a d =>
        '(a', caps1) <- match a with
                        | Cons _ _ => capture excl caps a
                        | _ => if symbolp a then capture_symbol excl caps a
                               else capture excl caps a
                        end ;;
        match d with
        | Nil => ret (of_list (acc ++ [a']) Nil, caps1)
        | Cons _ _ => spine d caps1 (acc ++ [a'])
        | o => '(o', caps2) <- (if symbolp o then capture_symbol excl caps1 o
                                else capture excl caps1 o) ;;
               ret (of_list (acc ++ [a']) o', caps2)
        end
    | _ => ret (of_list acc Nil, caps)
    end.

Lemma capture_cons excl a d caps :
  capture excl caps (Cons a d) = cap_spine excl (Cons a d) caps [].
Proof. reflexivity. Qed.

(* The loop treats each element and the last tail as the walk treats any value, so the *)
(* walk threads the capture list through car and cdr (capture_cons_eq); the            *)
(* accumulator of the loop is an implementation detail.                                *)
Lemma capture_elem excl caps a :
  match a with
  | Cons _ _ => capture excl caps a
  | _ => if symbolp a then capture_symbol excl caps a else capture excl caps a
  end = capture excl caps a.
Proof. destruct a; reflexivity. Qed.

Lemma cap_spine_step excl a d caps acc :
  cap_spine excl (Cons a d) caps acc =
  ('(a', c1) <- capture excl caps a ;;
   if consp d then cap_spine excl d c1 (acc ++ [a'])
   else '(d', c2) <- capture excl c1 d ;; ret (of_list (acc ++ [a']) d', c2)).
Proof. cbn [cap_spine]. rewrite capture_elem. destruct d; reflexivity. Qed.

Lemma cap_spine_eq excl : forall d a caps acc s0,
  cap_spine excl (Cons a d) caps acc s0 =
  ('(a', c1) <- capture excl caps a ;; '(d', c2) <- capture excl c1 d ;;
   ret (of_list (acc ++ [a']) d', c2)) s0.
Proof.
  induction d; intros a caps acc s0; rewrite cap_spine_step; try reflexivity.
  (* a longer list: both sides run a, then d1, then d2 *)
  unfold bind. destruct (capture excl caps a s0) as [[[a' c1]|?|?|] s1]; try reflexivity.
  cbn [consp]. rewrite capture_cons, !IHd2. unfold bind.
  destruct (capture excl c1 d1 s1) as [[[d1' c2]|?|?|] s2]; try reflexivity.
  destruct (capture excl c2 d2 s2) as [[[d2' c3]|?|?|] s3]; try reflexivity.
  unfold ret. rewrite of_list_app. reflexivity.
Qed.

Theorem capture_cons_eq excl caps a d s0 :
  capture excl caps (Cons a d) s0 =
  ('(a', c1) <- capture excl caps a ;; '(d', c2) <- capture excl c1 d ;;
   ret (Cons a' d', c2)) s0.
Proof. rewrite capture_cons. apply cap_spine_eq. Qed.

Definition expand_spine (rec : task -> M sx) :=
  fix spine (a d : sx) (acc : list sx) {struct d} : M sx :=
    bind (expand rec a) (fun a' =>
    match d with
    | Nil => ret (of_list (acc ++ [a']) Nil)
    | Cons a2 d2 => spine a2 d2 (acc ++ [a'])
    | o => ret (of_list (acc ++ [a']) o)
    end).

(* [ax] is nested through [list] and [option]: Coq's principle has no hypothesis for the elements *)
Lemma ax_ind' (P : ax -> Prop) :
  (forall xs tl sp, Forall P xs -> (forall t, tl = Some t -> P t) -> P (AList xs tl sp)) ->
  (forall x sp, P x -> P (AQuote x sp)) -> (forall x sp, P x -> P (ABq x sp)) ->
  (forall x sp, P x -> P (AUnq x sp)) -> (forall x sp, P x -> P (ASplice x sp)) ->
  (forall x, (match x with
              | AList _ _ _ | AQuote _ _ | ABq _ _ | AUnq _ _ | ASplice _ _ => False
              | _ => True end) -> P x) ->
  forall x, P x.
Proof.
  intros HL HQ HB HU HS HA. fix IH 1. intros x.
  destruct x; try (apply HA; exact I).
  - apply HL.
    + induction xs as [|a xs IHxs]; constructor; [apply IH|exact IHxs].
    + destruct tl as [t|]; intros t' E; [injection E as <-; apply IH|discriminate E].
  - apply HQ, IH.
  - apply HB, IH.
  - apply HU, IH.
  - apply HS, IH.
Qed.

(* the element loop of [readtime] is [readtime_all] *)
Lemma readtime_list rec xs tl sp :
  readtime rec (AList xs tl sp) =
  (elems <- readtime_all rec xs ;;
   tlv <- match tl with
          | None => ret Nil
          | Some t => v <- readtime rec t ;;
                      ret (match elems, v with
                           | [], Nil => Nil
                           | [], Cons _ _ => v
                           | [], _ => Cons v Nil
                           | _, _ => v
                           end)
          end ;;
   match of_list elems tlv with
   | Cons (Sym n) _ =>
       if text_eqb n n_defun || text_eqb n n_defmacro then
         e <- rec (TExpand (of_list elems tlv)) ;; _ <- rec (TEval e) ;; ret e
       else ret (of_list elems tlv)
   | _ => ret (of_list elems tlv)
   end).
Proof. reflexivity. Qed.

Lemma parse_body_eq F rec t s :
  parse_body F rec t s =
  bind (fun s => (read_ax F (flags s) t, s))
       (fun forms => bind (readtime_all rec forms)
                          (fun forms' => rec (TExpand (of_list forms' Nil)))) s.
Proof. unfold parse_body, bind. destruct (read_ax F (flags s) t); reflexivity. Qed.
