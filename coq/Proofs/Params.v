(* C02: parameter lists and the distribution of argument values, in closed form. *)
From TL Require Import Base.Base Model.Reader Model.Printer Model.Eval.
From TL Require Import Proofs.Calls Proofs.Lists.
Local Open Scope nat_scope.
Local Open Scope list_scope.

Definition mkp (opt : bool) (x : sx) : param := {| p_sym := x; p_opt := opt; p_rest := false |}.
Definition mkreq := mkp false.
Definition mkopt := mkp true.
Definition mkrest (x : sx) : param := {| p_sym := x; p_opt := false; p_rest := true |}.

(* a parameter name: a symbol other than the two markers *)
Definition plain (x : sx) : Prop :=
  exists n, sym_name x = Some n /\ text_eqb n n_optional = false /\ text_eqb n n_rest = false.

Lemma loop_plain L : forall tl opt acc, Forall plain L ->
  parse_params_loop (L ++ tl) opt false acc = parse_params_loop tl opt false (rev (map (mkp opt) L) ++ acc).
Proof.
  induction L as [|x L IH]; intros tl opt acc H; [reflexivity|].
  inversion H as [|? ? (n & Hn & H1 & H2) HL].
  cbn [app parse_params_loop]. rewrite Hn, H1, H2. rewrite IH by assumption.
  cbn [map rev]. rewrite <- app_assoc. reflexivity.
Qed.

(* the parameter list (R.. [&optional O..] [&rest r]) *)
Definition ptext (R : list sx) (optmark : bool) (O : list sx) (rest : option sx) : list sx :=
  R ++ (if optmark then [Sym n_optional] else []) ++ O ++
  match rest with Some r => [Sym n_rest; r] | None => [] end.
Definition pshape (R O : list sx) (rest : option sx) : list param :=
  map mkreq R ++ map mkopt O ++ match rest with Some r => [mkrest r] | None => [] end.

Lemma n_optional_not_rest : text_eqb n_optional n_rest = false.
Proof. vm_compute. reflexivity. Qed.

Theorem parse_params_shape R optmark O rest :
  Forall plain R -> Forall plain O -> (optmark = false -> O = []) ->
  match rest with Some r => plain r | None => True end ->
  parse_params (of_list (ptext R optmark O rest) Nil) = Ok (pshape R O rest).
Proof.
  intros HR HO Hm Hr. unfold parse_params.
  assert (Hl : listp (of_list (ptext R optmark O rest) Nil) = true) by (destruct (ptext R optmark O rest); reflexivity).
  rewrite Hl, items_proper. unfold ptext, pshape.
  rewrite loop_plain by assumption. rewrite app_nil_r.
  assert (Hrest : forall opt acc,
            parse_params_loop (match rest with Some r => [Sym n_rest; r] | None => [] end) opt false acc =
            Ok (rev acc ++ match rest with Some r => [mkrest r] | None => [] end)).
  { intros opt acc. destruct rest as [r|]; cbn [parse_params_loop sym_name].
    - assert (E1 : text_eqb n_rest n_optional = false) by (vm_compute; reflexivity).
      rewrite E1, text_eqb_refl. destruct Hr as (n & Hn & H1 & H2). rewrite Hn, H1, H2. reflexivity.
    - rewrite app_nil_r. reflexivity. }
  destruct optmark.
  - cbn [app parse_params_loop sym_name]. rewrite text_eqb_refl.
    rewrite loop_plain by assumption. rewrite Hrest.
    rewrite rev_app_distr, !rev_involutive. rewrite <- app_assoc. reflexivity.
  - rewrite (Hm eq_refl), Hrest, rev_involutive. reflexivity.
Qed.

Lemma zip_pure_req R : forall ps vs,
  zip_pure (map mkreq R ++ ps) vs =
  if List.length vs <? List.length R then Err EType
  else match zip_pure ps (skipn (List.length R) vs) with
       | Ok l => Ok (firstn (List.length R) vs ++ l)
       | e => e
       end.
Proof.
  induction R as [|x R IH]; intros ps vs.
  - cbn [map app List.length skipn firstn]. destruct (zip_pure ps vs); reflexivity.
  - cbn [map app zip_pure mkreq mkp p_opt p_rest List.length]. destruct vs as [|v vs].
    + reflexivity.
    + rewrite IH. cbn [List.length skipn firstn].
      change (S (List.length vs) <? S (List.length R)) with (List.length vs <? List.length R).
      destruct (List.length vs <? List.length R); [reflexivity|].
      destruct (zip_pure ps (skipn (List.length R) vs)); reflexivity.
Qed.

Lemma zip_pure_opt O : forall ps vs,
  zip_pure (map mkopt O ++ ps) vs =
  match zip_pure ps (skipn (List.length O) vs) with
  | Ok l => Ok (firstn (List.length O) vs ++ repeat Nil (List.length O - List.length vs) ++ l)
  | e => e
  end.
Proof.
  induction O as [|x O IH]; intros ps vs.
  - cbn [map app List.length skipn firstn repeat Nat.sub]. destruct (zip_pure ps vs); reflexivity.
  - cbn [map app zip_pure mkopt mkp p_opt List.length]. destruct vs as [|v vs].
    + rewrite IH. cbn [List.length skipn firstn Nat.sub repeat]. rewrite skipn_nil, firstn_nil.
      rewrite Nat.sub_0_r. destruct (zip_pure ps []); reflexivity.
    + rewrite IH. cbn [List.length skipn firstn Nat.sub]. destruct (zip_pure ps (skipn (List.length O) vs)); reflexivity.
Qed.

Theorem zip_pure_closed_form R O rest vs :
  zip_pure (pshape R O rest) vs =
  if List.length vs <? List.length R then Err EType
  else Ok (firstn (List.length R) vs ++
           firstn (List.length O) (skipn (List.length R) vs) ++
           repeat Nil (List.length O - (List.length vs - List.length R)) ++
           match rest with
           | Some _ => [of_list (skipn (List.length O) (skipn (List.length R) vs)) Nil]
           | None => []
           end).
Proof.
  unfold pshape. rewrite zip_pure_req. destruct (List.length vs <? List.length R); [reflexivity|].
  rewrite zip_pure_opt. rewrite skipn_length.
  destruct rest as [r|]; reflexivity.
Qed.
