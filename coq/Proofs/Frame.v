(* C03, values: no evaluation can modify or remove a shadowed binding, and a    *)
(* call gives back the bindings it shadowed.                                      *)
From TL Require Import Base.Base Model.Reader Model.Printer Model.Store Model.Eval.
From TL Require Import Proofs.EvalRel Proofs.Hidden Proofs.Tramp.
Local Open Scope nat_scope.
Local Open Scope list_scope.

(* The hidden-entry simulation read in a single world: the second world is the *)
(* state without [mid]; what the run leaves there is cut at the height of [B]  *)
(* and [mid] put back.  With [B] not empty no write of the global slot has to  *)
(* be excluded.                                                                *)
Lemma interior {A} (m : M A) k X mid B s r s' :
  R2 (single k mid) (fun _ => List.length B) (fun k' => single k mid k' <> []) m m ->
  bitems (sget s k) = X ++ mid ++ B -> 1 <= List.length X -> 1 <= List.length B ->
  m s = (r, s') -> r <> Fuel ->
  exists X' B', bitems (sget s' k) = X' ++ mid ++ B' /\
                List.length X <= List.length X' /\ List.length B' = List.length B.
Proof.
  intros [_ Rm] Hs LX LB Hrun Hr.
  set (s2 := sput s k {| has_global := has_global (sget s k); bitems := X ++ B |}).
  destruct (Rm s s2 r s') as (s2' & _ & [_ HS'] & _ & Dm); try assumption.
  - split; [apply same_rest_sym, same_rest_sput|]. intros k'. unfold insb, single, s2.
    destruct (Pos.eq_dec k k') as [<-|N].
    + rewrite sget_sput_same. apply binding_eta; [reflexivity|]. rewrite Hs. symmetry. apply insl_mid.
    + rewrite sget_sput_other by assumption. rewrite insl_nil. destruct (sget s k'); reflexivity.
  - intros k' Ht. unfold single in Ht. destruct (Pos.eq_dec k k') as [<-|N]; [|congruence].
    unfold s2. rewrite sget_sput_same. cbn [bitems]. rewrite app_length. lia.
  - intros k' [_ E]. lia.
  - specialize (Dm k). unfold s2 in Dm. rewrite depth_sput_same in Dm. cbn [bitems] in Dm.
    rewrite app_length in Dm. unfold depth in Dm.
    rewrite (HS' k). unfold insb, insl, single. destruct (Pos.eq_dec k k) as [_|N]; [|congruence].
    do 2 eexists. split; [reflexivity|]. rewrite firstn_length, skipn_length. lia.
Qed.

Theorem frame_interior F f t s k top mid b r s' :
  bitems (sget s k) = top :: mid ++ [b] ->
  run F f t s = (r, s') -> r <> Fuel ->
  exists X b', X <> [] /\ bitems (sget s' k) = X ++ mid ++ [b'].
Proof.
  intros Hs Hrun Hr.
  destruct (interior (run F f t) k [top] mid [b] s r s' (run_R2 _ _ _ (fun _ H => H) F f t) Hs
              (le_n 1) (le_n 1) Hrun Hr) as (X & B & E & LX & LB).
  destruct B as [|b' [|]]; try discriminate. exists X, b'. split; [|exact E].
  intros ->. simpl in LX. lia.
Qed.

(* Only the outermost entry (the global slot, which defun / set_global writes) *)
(* may have changed.  A defmacro of the parameter symbol inside the body is    *)
(* excluded: it leaves a permanent entry.                                      *)
Theorem call_restores F f syms vs body s r s' :
  Forall bindable syms -> List.length vs = List.length syms ->
  bracket (run F f) syms vs body s = (r, s') -> r <> Fuel ->
  forall k, In k (keys syms) -> 1 <= depth s k -> mc s' k = mc s k ->
  exists b', bitems (sget s' k) = removelast (bitems (sget s k)) ++ [b'].
Proof.
  intros Hb Hl H Hr k Hk Hd Hm.
  pose proof (eval_progn_R _ _ (run_self F f) body) as Rb.
  destruct (frame_inv syms (eval_progn (run F f) body) vs s r s' Hb Hl Rb H Hr)
    as (sa & sb & Q & Ta & Ebody & Tq & Lq).
  pose proof (Top_depth _ _ _ k Ta) as Da. rewrite pushed_length in Da by assumption.
  apply cnt_In in Hk.
  (* during the body: the parameters' values, the entries of before, the outermost of them last *)
  destruct (proj2 Ta k) as [_ Ea]. unfold depth in Hd.
  rewrite (app_removelast_last Nil (l := bitems (sget s k))) in Ea
    by (intros E; rewrite E in Hd; simpl in Hd; lia).
  destruct (interior (eval_progn (run F f) body) k _ _ _ sa r sb
              (eval_progn_R2 _ _ _ _ _ (run_R2 _ _ _ (fun _ H => H) F f) body) Ea)
    as (X & B & E & LX & LB); try assumption; [rewrite pushed_length by assumption; lia|apply le_n|].
  destruct B as [|b' [|]]; try discriminate. exists b'.
  (* the body is balanced, so what the unbinding takes off is [X] *)
  destruct (Rb _ _ _ Ebody Hr) as (_ & I & _).
  pose proof (Inv_balanced sa sb k I) as D.
  rewrite (same_rest_mc _ _ k (proj1 Tq)), (same_rest_mc _ _ k (proj1 Ta)) in D.
  specialize (D Hm ltac:(lia)). unfold depth in D. rewrite E, Ea, !app_length, pushed_length in D by assumption.
  destruct (proj2 Tq k) as [_ Eq]. rewrite E in Eq. symmetry.
  apply (app_inv_length X (Q k)); [rewrite Lq; simpl in D; lia|exact Eq].
Qed.

Lemma replace_last_spec l v : replace_last l v = removelast l ++ [v].
Proof.
  induction l as [|x l IH]; [reflexivity|].
  destruct l as [|y l']; [reflexivity|].
  change (replace_last (x :: y :: l') v) with (x :: replace_last (y :: l') v).
  rewrite IH. reflexivity.
Qed.

(* set_global (defun) writes the outermost slot whether or not it holds the     *)
(* global value: with temporary bindings only, it is the outermost temporary    *)
(* one (defect D39).                                                            *)
Theorem set_global_writes_bottom b v :
  bitems (b_set_global b v) = match bitems b with [] => [v] | l => removelast l ++ [v] end /\
  has_global (b_set_global b v) = true.
Proof. split; [unfold b_set_global; rewrite replace_last_spec; destruct (bitems b); reflexivity|reflexivity]. Qed.
