(* C01: the definitional interpreter of Spec/CoreSem.v is refined by the model. *)
(* A clause of the interpreter is first set against the model's clause over the  *)
(* SAME instance (Cont against a constant family), which is mostly conversion;   *)
(* that the model over the fuelled instances then follows is Proofs/Cont.v.      *)
From TL Require Import Base.Base Model.Reader Model.Printer Model.Store Model.Eval.
From TL Require Import Proofs.Calls Proofs.TailCalls Proofs.Cont.
From TL Require Import Spec.CoreSem.
Local Open Scope nat_scope.
Local Open Scope list_scope.

Lemma Cont_unspecified {A} (m2 : nat -> M A) : Cont (@unspecified A) m2.
Proof. intros s r s' H Hr. inversion H. congruence. Qed.

Lemma Cont_assoc {A B C} (m1 : M C) (m : nat -> M A) (g : nat -> A -> M B) (k : nat -> B -> M C) :
  Cont m1 (fun f => bind (m f) (fun x => bind (g f x) (k f))) ->
  Cont m1 (fun f => bind (bind (m f) (g f)) (k f)).
Proof.
  apply Cont_ext with (f0 := 0). intros f s _. symmetry. apply bind_assoc.
Qed.

(* the other two monad laws hold by conversion *)
Lemma Cont_lift_ok_l {A B} (m1 : M B) (a : A) (k : nat -> A -> M B) :
  Cont m1 (fun f => k f a) -> Cont m1 (fun f => bind (lift (Ok a)) (k f)).
Proof. exact (fun H => H). Qed.

Lemma Cont_ret_l {A B} (m1 : M B) (a : A) (k : nat -> A -> M B) :
  Cont m1 (fun f => k f a) -> Cont m1 (fun f => bind (ret a) (k f)).
Proof. exact (fun H => H). Qed.

(* the interpreter speaks of proper lists only; keep that fact when taking the match *)
Lemma Cont_proper {A} l (m1 : M A) m2 :
  (tail_of l = Nil -> Cont m1 m2) -> Cont (match tail_of l with Nil => m1 | _ => unspecified end) m2.
Proof. destruct (tail_of l); intros H; try apply Cont_unspecified. exact (H eq_refl). Qed.

(* c0 for a clause of the interpreter against the model's clause.  The model   *)
(* takes a form apart step by step where the interpreter matches on its shape:  *)
(* before each step of c0, bring the model side to its first step that does      *)
(* something.  The [cbn] list is what the model's clauses take a form apart with. *)
Ltac s0 :=
  repeat first
    [ progress cbn [apply_prim arg_req consp listp orb negb null car_of cdr_of]
    | progress unfold do_let
    | match goal with
      | |- Cont _ (fun f => bind (ret _) _) => apply Cont_ret_l; cbv beta iota
      | |- Cont _ (fun f => bind (lift (Ok _)) _) => apply Cont_lift_ok_l; cbv beta iota
      | |- Cont _ (fun f => bind (bind _ _) _) => apply Cont_assoc
      | |- Cont (match tail_of _ with _ => _ end) _ => apply Cont_proper; intros ?
      end
    | c0_step ].

#[local] Hint Resolve Cont_unspecified : c0.

Section Same.
Variable F : fops.
Variable rec : task -> M sx.
Variable load : text -> M sx.

Lemma call_function_eq e ps body args s :
  call_function rec e ps body (items args) s =
  bind (eval_function rec e ps body args)
       (fun r => if is_bounced r then unspecified else ret r) s.
Proof.
  unfold call_function, eval_function, with_bindings.
  unfold bind, lift. destruct (parse_params ps) as [pl|e0|n0|]; try reflexivity.
  (* the interpreter is written in the factored form *)
  rewrite zip_args_spec. unfold bind, lift. change (evlis rec) with (eval_each rec).
  destruct ((if e then eval_each rec _ else ret _) s) as [[vs|e1|n1|] s1]; try reflexivity.
  destruct (zip_pure pl vs) as [bound|e2|n2|]; try reflexivity.
  destruct (skipn _ (items args)); reflexivity.
Qed.

Lemma bind_vars_same : forall vars bound,
  Cont (bind_vars rec vars bound) (fun _ => let_bind rec vars bound).
Proof.
  induction vars as [|v vars IH]; intros bound; cbn [bind_vars let_bind]; s0.
Qed.
Hint Resolve bind_vars_same : c0.

Lemma dolist_iter_same var body : forall l k, tail_of l = Nil -> List.length (items l) < k ->
  Cont (dolist_iter rec var (items l) body) (fun _ => dolist_loop rec k var l body).
Proof.
  induction l as [| | | | | | | |a _ d IH| | | | | | | | | | |]; intros [|k] Ht Hk;
    try discriminate Ht; try (simpl in Hk; lia); try apply Cont_const.
  cbn [items dolist_iter dolist_loop truthy null negb tail_of] in *.
  assert (Hs : dolist_step (Cons a d) = Ok (d, hd Nil (items d)))
    by (destruct d; try discriminate Ht; reflexivity).
  rewrite Hs. s0. apply IH; [assumption|simpl in Hk; lia].
Qed.
Hint Extern 1 (Cont (dolist_iter _ _ _ _) _) => apply dolist_iter_same; [assumption|lia] : c0.

Lemma special_same p args : is_special p = true ->
  Cont (special F rec p args) (fun _ => apply_prim F rec load p args).
Proof.
  intros Hp. destruct p; try discriminate Hp; clear Hp; cbn [special].
  (* a clause says nothing about a form of another shape *)
  all: repeat match goal with
              | |- Cont (match ?x with _ => _ end) _ => destruct x; try apply Cont_unspecified
              end.
  (* and on its own shape it is, for most special forms, the model's clause *)
  all: try apply Cont_const.
  (* left: eval, not, xor, where the model takes the arguments by arg_req; let, let* *)
  (* (bind_vars) and dolist (dolist_iter)                                            *)
  all: s0.
Qed.
End Same.

Section Refine.
Variable F : fops.
Variable rec1 : task -> M sx.
Variable recm : nat -> task -> M sx.
Variable load1 : text -> M sx.
Variable loadm : nat -> text -> M sx.
Hypothesis Hrec : forall t, Cont (rec1 t) (fun f => recm f t).
Hypothesis Hload : forall t, Cont (load1 t) (fun f => loadm f t).
(* the model-side instance answers a finished call at once *)
Hypothesis Htramp : forall ps body r, is_bounced r = false ->
  Cont (ret r) (fun f => recm f (TTramp ps body r)).

Lemma eval_C x : Cont (eval rec1 x) (fun f => ev (recm f) x).
Proof. apply Hrec. Qed.
Lemma rec1_C t : Cont (rec1 t) (fun f => recm f t).
Proof. apply Hrec. Qed.

(* these helpers of the interpreter have the bodies of the model's: its lemmas are theirs by conversion *)
Lemma progn_C : forall l last, Cont (progn rec1 l last) (fun f => eval_progn_l (recm f) l last).
Proof. exact (eval_progn_l_C rec1 recm Hrec). Qed.
Lemma evlis_C : forall l, Cont (evlis rec1 l) (fun f => eval_each (recm f) l).
Proof. exact (eval_each_C rec1 recm Hrec). Qed.
Lemma cond_C : forall l, Cont (cond_clauses rec1 l) (fun f => cond_l (recm f) l).
Proof. exact (cond_l_C rec1 recm Hrec). Qed.
Lemma and_C : forall l last, Cont (and_forms rec1 l last) (fun f => and_l (recm f) l last).
Proof. exact (and_l_C rec1 recm Hrec). Qed.
Lemma or_C : forall l, Cont (or_forms rec1 l) (fun f => or_l (recm f) l).
Proof. exact (or_l_C rec1 recm Hrec). Qed.
Lemma push_all_eq : forall syms vals done s, push_all syms vals done s = bind_all syms vals done s.
Proof. reflexivity. Qed.

Lemma bind_vars_C : forall vars bound,
  Cont (bind_vars rec1 vars bound) (fun f => let_bind (recm f) vars bound).
Proof.
  intros vars bound.
  exact (Cont_trans _ _ _ (bind_vars_same rec1 vars bound) (let_bind_C rec1 recm Hrec vars bound)).
Qed.

Lemma special_C p args : is_special p = true ->
  Cont (special F rec1 p args) (fun f => apply_prim F (recm f) (loadm f) p args).
Proof.
  intros Hp.
  exact (Cont_trans _ _ _ (special_same F rec1 load1 p args Hp)
                    (apply_prim_C F rec1 recm load1 loadm Hrec Hload p args)).
Qed.

Lemma call_function_C evalp ps body args :
  Cont (call_function rec1 evalp ps body (items args))
       (fun f => bind (eval_function (recm f) evalp ps body args)
                      (fun r => recm f (TTramp ps body r))).
Proof.
  eapply Cont_left; [intros s; apply call_function_eq|].
  apply Cont_bind; [apply (eval_function_C rec1 recm Hrec)|].
  intros r. destruct (is_bounced r) eqn:Eb; [apply Cont_unspecified|apply Htramp, Eb].
Qed.

(* but for calls of functions and the special forms, sstep is the model's step *)
Lemma sstep_C t : Cont (sstep F rec1 load1 t) (fun f => step F (recm f) (loadm f) t).
Proof.
  pose proof (step_C F rec1 recm load1 loadm Hrec Hload t) as Hstep.
  destruct t as [x|evalp fn args|c body last|ps body r|var i n body|x]; try exact Hstep.
  - destruct fn as [| | | | | | | | | | | | | |ps body|ps body|p|m| |]; try exact Hstep.
    + apply call_function_C.
    + cbn [sstep step]. destruct evalp, (is_special p) eqn:Ep; try exact Hstep.
      apply special_C, Ep.
  - apply Cont_unspecified.
Qed.
End Refine.

Section Main.
Variable F : fops.

Lemma tramp_done ps body r : is_bounced r = false ->
  Cont (ret r) (fun f => run F f (TTramp ps body r)).
Proof.
  intros Hb s r0 s' [= <- <-] _. exists 1. intros [|f] Hf; [lia|]. apply trampoline_exit, Hb.
Qed.

(* every outcome (value or error) and final state that the definitional     *)
(* interpreter assigns to a task is the outcome and final state of the model  *)
(* for every sufficiently large fuel                                           *)
Theorem spec_refines : forall n t, Cont (spec F n t) (fun f => run F f t).
Proof.
  induction n as [|n IH]; intros t; [apply Cont_unspecified|].
  apply Cont_S.
  exact (sstep_C F (spec F n) (run F) (run_body F (spec F n)) (fun f => run_body F (run F f))
                 IH (run_body_C F (spec F n) (run F) IH) tramp_done t).
Qed.

Corollary spec_sound n t s r s' :
  spec F n t s = (r, s') -> r <> Fuel -> exists f, run F f t s = (r, s').
Proof.
  intros H Hr. destruct (spec_refines n t s r s' H Hr) as [f0 H0]. exists f0. apply H0. lia.
Qed.

End Main.
