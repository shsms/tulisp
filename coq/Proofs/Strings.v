(* C15: concat, format, the string orderings of Model/Eval.v.               *)
From TL Require Import Base.Base Model.Printer Model.Store Model.Eval.
From TL Require Import Proofs.Decimal.
Local Open Scope N_scope.
Local Open Scope list_scope.

Lemma concat_l_spec : forall ss acc, concat_l (map Str ss) acc = Ok (acc ++ List.concat ss).
Proof.
  induction ss as [|s ss IH]; intros acc; simpl.
  - rewrite app_nil_r. reflexivity.
  - rewrite IH, app_assoc. reflexivity.
Qed.

Definition concat2 (a b : text) : res text := concat_l [Str a; Str b] [].
Lemma concat2_app a b : concat2 a b = Ok (a ++ b).
Proof. reflexivity. Qed.

Theorem concat_assoc a b c :
  (match concat2 a b with Ok ab => concat2 ab c | e => e end) =
  (match concat2 b c with Ok bc => concat2 a bc | e => e end).
Proof. rewrite (concat2_app a b), (concat2_app b c), !concat2_app, app_assoc. reflexivity. Qed.
Theorem concat_empty_l a : concat2 [] a = Ok a.
Proof. rewrite concat2_app. reflexivity. Qed.
Theorem concat_empty_r a : concat2 a [] = Ok a.
Proof. rewrite concat2_app, app_nil_r. reflexivity. Qed.
Theorem concat_rejects_non_string : forall l acc x l2, stringp x = false ->
  concat_l (map Str l ++ x :: l2) acc = Err EType.
Proof.
  induction l as [|s l IH]; intros acc x l2 Hx; simpl.
  - destruct x; try reflexivity. discriminate.
  - apply IH. assumption.
Qed.

Theorem text_ltb_irrefl a : text_ltb a a = false.
Proof. induction a as [|x a IH]; simpl; [reflexivity|]. rewrite N.ltb_irrefl. exact IH. Qed.

Lemma text_ltb_cons x a y b :
  text_ltb (x :: a) (y :: b) =
  match x ?= y with Lt => true | Eq => text_ltb a b | Gt => false end.
Proof.
  simpl. unfold N.ltb. rewrite (N.compare_antisym x y). destruct (x ?= y); reflexivity.
Qed.

Theorem text_ltb_trans : forall a b c, text_ltb a b = true -> text_ltb b c = true -> text_ltb a c = true.
Proof.
  induction a as [|x a IH]; intros [|y b] [|z c] H1 H2; try discriminate; try reflexivity.
  rewrite text_ltb_cons in *.
  destruct (N.compare_spec x y) as [->|Hxy|]; [| |discriminate H1].
  - destruct (y ?= z); [eapply IH; eassumption|reflexivity|discriminate H2].
  - destruct (N.compare_spec y z) as [<-|Hyz|]; [| |discriminate H2];
      rewrite (proj2 (N.compare_lt_iff x _)); eauto using N.lt_trans.
Qed.

Theorem text_trichotomy : forall a b,
  (text_ltb a b = true /\ text_eqb a b = false /\ text_ltb b a = false) \/
  (text_ltb a b = false /\ text_eqb a b = true /\ text_ltb b a = false) \/
  (text_ltb a b = false /\ text_eqb a b = false /\ text_ltb b a = true).
Proof.
  induction a as [|x a IH]; intros [|y b]; auto.
  rewrite !text_ltb_cons, (N.compare_antisym x y). cbn [text_eqb].
  destruct (N.compare_spec x y) as [->|H|H]; cbn [CompOpp].
  - rewrite N.eqb_refl. apply IH.
  - apply N.lt_neq, N.eqb_neq in H. rewrite H. left. repeat split.
  - apply N.lt_neq, N.neq_sym, N.eqb_neq in H. rewrite H. right; right. repeat split.
Qed.

(* format: the loop of the model against a parse into directives and a fold *)
(* over them                                                                *)
Inductive dir :=
| DLit (c : cp)          (* an ordinary character, or %% *)
| DArg (d : cp)          (* % followed by a directive letter *)
| DEnd.                  (* a lone % at the end of the string: dropped *)

Fixpoint directives (inp : text) : list dir :=
  match inp with
  | [] => []
  | c :: r =>
      if negb (N.eqb c c_pct) then DLit c :: directives r
      else match r with
           | [] => [DEnd]
           | d :: r2 => (if N.eqb d c_pct then DLit d else DArg d) :: directives r2
           end
  end.

Section Fmt.
Variable F : fops.

(* the directive letters: s = 115, S = 83, d = 100, f = 102 *)
Definition render_arg (d : cp) (a : sx) : res text :=
  if N.eqb d 115 then Ok (princ F a)
  else if N.eqb d 83 then Ok (print F a)
  else if N.eqb d 100 then
    match try_int F a with Ok z => Ok (print_Z z) | Err e => Err e | Panic n => Panic n | Fuel => Fuel end
  else if N.eqb d 102 then
    match try_float F a with Ok b => Ok (f_to_dec F b) | Err e => Err e | Panic n => Panic n | Fuel => Fuel end
  else Err ESyntax.

Fixpoint render (ds : list dir) (args : list sx) (acc : text) : res text :=
  match ds with
  | [] => Ok acc
  | DLit c :: r => render r args (acc ++ [c])
  | DEnd :: _ => Ok acc
  | DArg d :: r =>
      match args with
      | [] => Err EMissing
      | a :: args' =>
          match render_arg d a with
          | Ok t => render r args' (acc ++ t)
          | e => e
          end
      end
  end.

Theorem format_is_render : forall inp args acc,
  format_loop F inp args acc = render (directives inp) args acc.
Proof.
  (* fix, not induction: after a directive the loop goes on two characters further *)
  fix IH 1. intros inp args acc. destruct inp as [|c r]; [reflexivity|].
  simpl. destruct (negb (N.eqb c c_pct)) eqn:Ec; [simpl; apply IH|].
  destruct r as [|d r2]; [reflexivity|].
  destruct (N.eqb d c_pct) eqn:Ed; [simpl; apply IH|].
  simpl. destruct args as [|a args']; [reflexivity|].
  unfold render_arg.
  destruct (N.eqb d 115); [apply IH|].
  destruct (N.eqb d 83); [apply IH|].
  destruct (N.eqb d 100).
  { destruct (try_int F a); try reflexivity. apply IH. }
  destruct (N.eqb d 102).
  { destruct (try_float F a); try reflexivity. apply IH. }
  reflexivity.
Qed.

Definition n_args (ds : list dir) : nat :=
  List.length (filter (fun d => match d with DArg _ => true | _ => false end) ds).

Theorem render_surplus_ignored : forall ds args extra acc out,
  render ds args acc = Ok out -> render ds (args ++ extra) acc = Ok out.
Proof.
  induction ds as [|d ds IH]; intros args extra acc out H; simpl in *; [assumption|].
  destruct d; auto.
  destruct args as [|a args']; [discriminate|]. simpl.
  destruct (render_arg d a); try discriminate. apply IH. assumption.
Qed.

Theorem render_missing : forall d r acc, render (DArg d :: r) [] acc = Err EMissing.
Proof. reflexivity. Qed.

Theorem render_unknown d a r args acc :
  N.eqb d 115 = false -> N.eqb d 83 = false -> N.eqb d 100 = false -> N.eqb d 102 = false ->
  render (DArg d :: r) (a :: args) acc = Err ESyntax.
Proof. intros H1 H2 H3 H4. simpl. unfold render_arg. rewrite H1, H2, H3, H4. reflexivity. Qed.

Theorem render_step_lit c r args acc : render (DLit c :: r) args acc = render r args (acc ++ [c]).
Proof. reflexivity. Qed.
Theorem render_step_arg d r a args acc t : render_arg d a = Ok t ->
  render (DArg d :: r) (a :: args) acc = render r args (acc ++ t).
Proof. intros H. simpl. rewrite H. reflexivity. Qed.

End Fmt.

Definition gensym_name (prefix : text) (count : Z) : text := prefix ++ print_Z count.

Theorem gensym_names_distinct p c1 c2 : c1 <> c2 -> gensym_name p c1 <> gensym_name p c2.
Proof.
  intros Hc H. apply app_inv_head in H. apply print_Z_inj in H. contradiction.
Qed.

Definition counter_key : key := key_of_name (s2t "gensym-counter").

(* one call of (gensym): the name is made from the counter, the counter is *)
(* incremented, the symbol is uninterned with a fresh serial                *)
Theorem gensym_step F rec load s c rest :
  bitems (sget s counter_key) = Int c :: rest -> in_i64 (c + 1)%Z = true ->
  exists s', apply_prim F rec load PGensym Nil s
             = (Ok (USym (gensym_name (s2t "g") c) (next_id s)), s') /\
             bitems (sget s' counter_key) = Int (c + 1)%Z :: rest /\
             next_id s' = Pos.succ (next_id s).
Proof.
  intros Hb Hr. cbn [apply_prim]. unfold arg_opt, bind, ret, sym_boundp, sym_get.
  change (key_of (S_ "gensym-counter")) with (Some counter_key).
  change (keywordp (S_ "gensym-counter")) with false.
  unfold depth. rewrite !Hb. cbn [List.length Nat.eqb negb]. rewrite Hb, Hr.
  unfold sym_set, with_key.
  change (key_of (S_ "gensym-counter")) with (Some counter_key).
  change (is_constant (S_ "gensym-counter")) with false.
  unfold fresh_id. eexists. split; [reflexivity|]. split; [|reflexivity].
  unfold sget at 1. cbn [store sput]. rewrite PositiveMap.gss.
  unfold b_set. rewrite Hb. reflexivity.
Qed.
