(* C18: nesting of activations of the list operations, as a function of the    *)
(* value.  [actD] counts what the Rust code nests when it walks a value as       *)
(* fmt_list and PartialEq for Cons (as repaired) do: the spine by a loop, each    *)
(* ELEMENT, and a dotted tail, by a nested call.  It is a free-standing           *)
(* definition.  Of the model only Printer.v print has that shape (Eval.v equal   *)
(* and Api.v copy_spine recurse along the cdr), and no lemma relates actD to a    *)
(* function of the model: the theorems below are about actD alone.                *)
From TL Require Import Base.Base Model.Reader Model.Printer Model.Eval.
Local Open Scope nat_scope.
Local Open Scope list_scope.

Fixpoint actD (x : sx) : nat :=
  match x with
  | Cons a d =>
      Nat.max (S (actD a))
        ((fix tl (d : sx) : nat :=
            match d with
            | Nil => 0
            | Cons a' d' => Nat.max (S (actD a')) (tl d')
            | o => S (actD o)
            end) d)
  | Quote v | Bq v | Unq v | Splice v | Sharp v => S (actD v)
  | _ => 0
  end.

Definition spineD : sx -> nat :=
  fix tl (d : sx) : nat :=
    match d with
    | Nil => 0
    | Cons a' d' => Nat.max (S (actD a')) (tl d')
    | o => S (actD o)
    end.

Lemma actD_cons a d : actD (Cons a d) = Nat.max (S (actD a)) (spineD d).
Proof. reflexivity. Qed.

Fixpoint list_max (l : list nat) : nat :=
  match l with [] => 0 | x :: r => Nat.max x (list_max r) end.

(* a proper list of any length: as deep as its deepest element, plus one *)
Theorem spineD_list : forall xs, spineD (of_list xs Nil) = list_max (map (fun x => S (actD x)) xs).
Proof. induction xs as [|x xs IH]; simpl; [reflexivity|]. rewrite <- IH. reflexivity. Qed.

Theorem actD_list : forall x xs,
  actD (of_list (x :: xs) Nil) = list_max (map (fun e => S (actD e)) (x :: xs)).
Proof. intros. cbn [of_list]. rewrite actD_cons, spineD_list. reflexivity. Qed.

(* a list of atoms needs ONE nested activation, whatever its length *)
Definition atom (x : sx) : bool :=
  match x with Cons _ _ | Quote _ | Bq _ | Unq _ | Splice _ | Sharp _ => false | _ => true end.

Lemma actD_atom x : atom x = true -> actD x = 0.
Proof. destruct x; try reflexivity; discriminate. Qed.

Theorem flat_list_depth_one : forall x xs,
  forallb atom (x :: xs) = true -> actD (of_list (x :: xs) Nil) = 1.
Proof.
  intros x xs. rewrite actD_list. revert x.
  induction xs as [|y ys IH]; intros x H; apply andb_true_iff in H as [Hx H];
    cbn [map list_max] in *; rewrite (actD_atom _ Hx); [reflexivity|].
  rewrite (IH y H). reflexivity.
Qed.

(* appending never deepens: the depth of an append is the max of the parts *)
Theorem append_depth xs ys :
  spineD (of_list (xs ++ ys) Nil) = Nat.max (spineD (of_list xs Nil)) (spineD (of_list ys Nil)).
Proof.
  rewrite !spineD_list. induction xs as [|x xs IH]; cbn [app map list_max]; [reflexivity|].
  rewrite IH. lia.
Qed.

(* length walks the spine only: the number of elements, whatever they are *)
Theorem length_is_a_count xs : length_z (of_list xs Nil) = Z.of_nat (List.length xs).
Proof. unfold length_z. rewrite items_of_list; [reflexivity|intros a d H; discriminate]. Qed.
