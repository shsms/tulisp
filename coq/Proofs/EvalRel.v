(* One traversal of the evaluator of Model/Eval.v gives, for every task, state, *)
(* outcome and fault point: fuel monotonicity, the binding-stack discipline    *)
(* (C03) and absence of Panic (C10).  All three are in the relation [R0]       *)
(* between the evaluator over one instance of its recursive call and over      *)
(* another; at the end the instances are [run f] and [run (S f)].              *)
From TL Require Import Base.Base Model.Reader Model.Printer Model.Store Model.Eval.
From TL Require Import Proofs.ReaderTotal Proofs.Walks.
Local Open Scope nat_scope.

(* [mc s k]: the defmacro forms executed on [k], by the ghost log *)
Definition cnt (l : list key) (k : key) : nat := count_occ Pos.eq_dec l k.
Definition mc (s : st) (k : key) : nat := cnt (mlog s) k.

(* [Bal pend s0 s]: relative to [s0], state [s] has exactly the pending  *)
(* temporary bindings [pend] (a multiset of keys) in addition; the only   *)
(* other growth is one entry per executed defmacro and the creation of a  *)
(* global entry on an empty stack.                                        *)
Definition Bal (pend : list key) (s0 s : st) : Prop :=
  forall k, depth s0 k + cnt pend k <= depth s k /\
            depth s k + mc s0 k <= Nat.max (depth s0 k) 1 + cnt pend k + mc s k /\
            mc s0 k <= mc s k.

Definition Inv (s s' : st) : Prop := Bal [] s s'.

Lemma Inv_refl s : Inv s s.
Proof. intros k. unfold cnt; simpl. lia. Qed.

Lemma Bal_Inv pend s0 s s' : Bal pend s0 s -> Inv s s' -> Bal pend s0 s'.
Proof.
  intros H1 H2 k. specialize (H1 k). specialize (H2 k). unfold cnt in *; simpl in *. lia.
Qed.

Lemma Inv_Bal pend s0 s s' : Inv s0 s -> Bal pend s s' -> Bal pend s0 s'.
Proof.
  intros H1 H2 k. specialize (H1 k). specialize (H2 k). unfold cnt in *; simpl in *. lia.
Qed.

Lemma Inv_trans s1 s2 s3 : Inv s1 s2 -> Inv s2 s3 -> Inv s1 s3.
Proof. apply Bal_Inv. Qed.

Lemma Inv_balanced s s' k : Inv s s' -> mc s' k = mc s k -> 1 <= depth s k -> depth s' k = depth s k.
Proof. intros I Hm Hd. pose proof (I k) as X. change (cnt [] k) with 0 in X. lia. Qed.

Lemma cnt_cons_same k l : cnt (k :: l) k = S (cnt l k).
Proof. unfold cnt. simpl. destruct (Pos.eq_dec k k); congruence. Qed.
Lemma cnt_cons_other k k' l : k <> k' -> cnt (k :: l) k' = cnt l k'.
Proof. unfold cnt. simpl. destruct (Pos.eq_dec k k'); congruence. Qed.
Lemma cnt_app l1 l2 k : cnt (l1 ++ l2) k = cnt l1 k + cnt l2 k.
Proof. unfold cnt. apply count_occ_app. Qed.

Lemma Inv_same s s' : store s' = store s -> mlog s' = mlog s -> Inv s s'.
Proof.
  intros Hs Hm k. unfold depth, sget, mc, cnt. rewrite Hs, Hm. simpl. lia.
Qed.

Lemma depth_sput_same s k b : depth (sput s k b) k = List.length (bitems b).
Proof. unfold depth. rewrite sget_sput_same. reflexivity. Qed.
Lemma depth_sput_other s k k' b : k <> k' -> depth (sput s k b) k' = depth s k'.
Proof. intros H. unfold depth. rewrite sget_sput_other; auto. Qed.
Lemma mc_sput s k b k' : mc (sput s k b) k' = mc s k'.
Proof. reflexivity. Qed.

Lemma length_replace_last l v : List.length (replace_last l v) = Nat.max (List.length l) 1.
Proof.
  induction l as [|x l IH]; simpl; auto.
  destruct l as [|y l]; simpl in *; auto. rewrite IH. lia.
Qed.

Lemma b_set_len b v : List.length (bitems (b_set b v)) = Nat.max (List.length (bitems b)) 1.
Proof. unfold b_set. destruct (bitems b) as [|x r]; simpl; lia. Qed.

Lemma Inv_sput s k b : List.length (bitems b) = Nat.max (depth s k) 1 -> Inv s (sput s k b).
Proof.
  intros Hb k'. rewrite mc_sput. unfold cnt; simpl.
  destruct (Pos.eq_dec k k') as [<-|N].
  - rewrite depth_sput_same, Hb. lia.
  - rewrite depth_sput_other by auto. lia.
Qed.

Lemma Inv_set s k v : Inv s (sput s k (b_set (sget s k) v)).
Proof. apply Inv_sput, b_set_len. Qed.
Lemma Inv_set_global s k v : Inv s (sput s k (b_set_global (sget s k) v)).
Proof. apply Inv_sput, length_replace_last. Qed.

Lemma Bal_push pend s0 s k v :
  Bal pend s0 s -> Bal (pend ++ [k]) s0 (sput s k (b_set_scope (sget s k) v)).
Proof.
  intros H k'. specialize (H k'). rewrite mc_sput, cnt_app.
  destruct (Pos.eq_dec k k') as [<-|N].
  - rewrite depth_sput_same, cnt_cons_same. simpl.
    fold (depth s k). lia.
  - rewrite depth_sput_other, cnt_cons_other by auto. simpl. lia.
Qed.

Lemma Bal_pop pend s0 s k :
  Bal (k :: pend) s0 s ->
  exists b, b_unset (sget s k) = Some b /\ Bal pend s0 (sput s k b).
Proof.
  intros H. pose proof (H k) as Hk. rewrite cnt_cons_same in Hk.
  unfold b_unset. unfold depth at 2 3 in Hk.
  destruct (bitems (sget s k)) as [|x r] eqn:E; simpl in Hk; [lia|].
  eexists; split; [reflexivity|].
  intros k'. specialize (H k'). rewrite mc_sput.
  destruct (Pos.eq_dec k k') as [<-|N].
  - rewrite depth_sput_same. simpl. rewrite cnt_cons_same in H.
    unfold depth at 2 3 in H. rewrite E in H. simpl in H. lia.
  - rewrite depth_sput_other by auto. rewrite cnt_cons_other in H by auto. lia.
Qed.

Lemma Inv_defmacro s k v s' :
  store s' = store (sput s k (b_set_scope (sget s k) v)) -> mlog s' = k :: mlog s -> Inv s s'.
Proof.
  intros Hs Hm k'.
  assert (D : depth s' k' = depth (sput s k (b_set_scope (sget s k) v)) k')
    by (unfold depth, sget; rewrite Hs; reflexivity).
  assert (Mc : mc s' k' = cnt (k :: mlog s) k') by (unfold mc; rewrite Hm; reflexivity).
  rewrite D, Mc. change (cnt [] k') with 0. unfold mc.
  destruct (Pos.eq_dec k k') as [<-|N].
  - rewrite depth_sput_same, cnt_cons_same. simpl. fold (depth s k). lia.
  - rewrite depth_sput_other, cnt_cons_other by auto. lia.
Qed.

Definition keys (l : list sx) : list key :=
  flat_map (fun x => match key_of x with Some k => [k] | None => [] end) l.
Definition has_key (x : sx) : Prop := key_of x <> None.

Lemma keys_app a b : keys (a ++ b) = keys a ++ keys b.
Proof. unfold keys. apply flat_map_app. Qed.
Lemma keys_cons x l k : key_of x = Some k -> keys (x :: l) = k :: keys l.
Proof. intros E. unfold keys. simpl. rewrite E. reflexivity. Qed.

(* [scope bound s0 s]: on top of [s0], [s] has the temporary bindings of the symbols *)
(* [bound] pending; they have keys, so that unbinding them cannot fail             *)
Definition scope (bound : list sx) (s0 s : st) : Prop :=
  Forall has_key bound /\ Bal (keys bound) s0 s.

Lemma scope_nil s0 s : Inv s0 s -> scope [] s0 s.
Proof. intros H. split; [constructor|exact H]. Qed.
Lemma scope_Inv bound s0 s s' : scope bound s0 s -> Inv s s' -> scope bound s0 s'.
Proof. intros [Hk HB] I. split; [exact Hk|exact (Bal_Inv _ _ _ _ HB I)]. Qed.

Definition np {A} (r : res A) : Prop := is_panic r = false.

Lemma np_Ok {A} (a : A) : np (Ok a). Proof. reflexivity. Qed.
Lemma np_Err {A} e : np (@Err A e). Proof. reflexivity. Qed.
Lemma np_Fuel {A} : np (@Fuel A). Proof. reflexivity. Qed.
Create HintDb np.
#[export] Hint Resolve np_Ok np_Err np_Fuel : np.

(* [R0 m1 m2], for one computation over two instances of the recursive call: a run of [m1] *)
(* that does not end in Fuel is a run of [m2], keeps the stacks balanced and does not panic *)
Definition R0 {A} (m1 m2 : M A) : Prop :=
  forall s r s', m1 s = (r, s') -> r <> Fuel ->
                 m2 s = (r, s') /\ Inv s s' /\ np r.

Lemma R0_lift {A} (r : res A) : np r -> R0 (lift r) (lift r).
Proof. intros Hn s r' s' H _. inversion H; subst. split; [reflexivity|split; [apply Inv_refl|assumption]]. Qed.
Lemma R0_ret {A} (a : A) : R0 (ret a) (ret a).
Proof. apply (R0_lift (Ok a)). reflexivity. Qed.
Lemma R0_fail {A} e : R0 (@fail A e) (fail e).
Proof. apply (R0_lift (Err e)). reflexivity. Qed.

Ltac inv_pair H := inversion H; subst; clear H.

Definition after {A} (Q : A -> st -> Prop) (E : st -> Prop) (r : res A) : st -> Prop :=
  match r with Ok a => Q a | _ => E end.

(* [RH P m1 m2 Q E]: as R0, from states that satisfy [P]; [Q a] holds after a value [a], *)
(* [E] after an error.  R0 is [scope [] s0] throughout, for every [s0] (R0_RH, RH_R0)    *)
Definition RH {A} (P : st -> Prop) (m1 m2 : M A) (Q : A -> st -> Prop) (E : st -> Prop) : Prop :=
  forall s r s', P s -> m1 s = (r, s') -> r <> Fuel -> m2 s = (r, s') /\ np r /\ after Q E r s'.

Lemma R0_RH {A} (m1 m2 : M A) bound s0 :
  R0 m1 m2 -> RH (scope bound s0) m1 m2 (fun _ => scope bound s0) (scope bound s0).
Proof.
  intros H s r s' Hs E Hr. destruct (H _ _ _ E Hr) as (E2 & I & N).
  split; [exact E2|]. split; [exact N|]. destruct r; exact (scope_Inv _ _ _ _ Hs I).
Qed.

Lemma RH_R0 {A} (m1 m2 : M A) :
  (forall s0, RH (scope [] s0) m1 m2 (fun _ => scope [] s0) (scope [] s0)) -> R0 m1 m2.
Proof.
  intros H s r s' E Hr. destruct (H s s r s' (scope_nil _ _ (Inv_refl s)) E Hr) as (E2 & N & HA).
  split; [exact E2|]. split; [destruct r; apply HA|exact N].
Qed.

Lemma RH_lift {A} Q E (x : res A) : np x -> RH (after Q E x) (lift x) (lift x) Q E.
Proof. intros N s r s' Hs H _. inversion H; subst. auto. Qed.
Lemma RH_ret {A} Q E (a : A) : RH (Q a) (ret a) (ret a) Q E.
Proof. apply (RH_lift Q E (Ok a)). reflexivity. Qed.
Lemma RH_fail {A} (Q : A -> st -> Prop) E e : RH E (fail e) (fail e) Q E.
Proof. apply (RH_lift Q E (Err e)). reflexivity. Qed.

(* the handler may use that its argument is an outcome of [m1] *)
Lemma RH_catch {A B} P Q E Q' E' (m1 m2 : M A) (k1 k2 : res A -> M B) :
  RH P m1 m2 Q E ->
  (forall r, r <> Fuel -> np r -> (exists s s', m1 s = (r, s')) -> RH (after Q E r) (k1 r) (k2 r) Q' E') ->
  RH P (catch m1 k1) (catch m2 k2) Q' E'.
Proof.
  intros Hm Hk s r s' Hs H Hr. destruct (catch_inv _ _ _ _ _ H Hr) as (r1 & s1 & E1 & Hr1 & H').
  destruct (Hm _ _ _ Hs E1 Hr1) as (E2 & N1 & HA).
  destruct (Hk r1 Hr1 N1 (ex_intro _ _ (ex_intro _ _ E1)) _ _ _ HA H' Hr) as (E3 & K).
  split; [|exact K]. unfold catch. rewrite E2. destruct r1; auto; congruence.
Qed.

Lemma RH_bind {A B} P Q E Q' (m1 m2 : M A) (f1 f2 : A -> M B) :
  RH P m1 m2 Q E ->
  (forall a, (exists s s', m1 s = (Ok a, s')) -> RH (Q a) (f1 a) (f2 a) Q' E) ->
  RH P (bind m1 f1) (bind m2 f2) Q' E.
Proof.
  intros Hm Hf s r s'. rewrite !bind_catch. revert s r s'.
  apply (RH_catch _ _ _ _ _ _ _ _ _ Hm). intros [a|e|n|] Hr N Hex;
    [apply Hf, Hex|apply (RH_lift Q' E (Err e)); reflexivity|discriminate N|congruence].
Qed.

Lemma RH_finally {A} P P' Q (body1 body2 : M A) (u1 u2 : M unit) :
  RH P body1 body2 (fun _ => P') P' -> RH P' u1 u2 (fun _ => Q) Q ->
  RH P (catch body1 (fun r => bind u1 (fun _ => lift r)))
       (catch body2 (fun r => bind u2 (fun _ => lift r))) (fun _ => Q) Q.
Proof.
  intros Hb Hu. eapply RH_catch; [exact Hb|]. intros r _ N _.
  destruct r; (eapply RH_bind; [exact Hu|]; intros ? _; exact (RH_lift (fun _ => Q) Q _ N)).
Qed.

Lemma R0_bind {A B} (m1 m2 : M A) (f1 f2 : A -> M B) :
  R0 m1 m2 -> (forall a, R0 (f1 a) (f2 a)) -> R0 (bind m1 f1) (bind m2 f2).
Proof.
  intros Hm Hf. apply RH_R0. intros s0.
  eapply RH_bind; [apply R0_RH, Hm|]. intros a _. apply R0_RH, Hf.
Qed.

Lemma R0_catch {A B} (m1 m2 : M A) (k1 k2 : res A -> M B) :
  R0 m1 m2 -> (forall r, r <> Fuel -> np r -> R0 (k1 r) (k2 r)) ->
  R0 (catch m1 k1) (catch m2 k2).
Proof.
  intros Hm Hk. apply RH_R0. intros s0.
  eapply RH_catch; [apply R0_RH, Hm|]. intros r Hr N _. destruct r; apply R0_RH, Hk; assumption.
Qed.

Lemma R0_ext {A} (m1 m2 m1' m2' : M A) :
  (forall s, m1 s = m1' s) -> (forall s, m2 s = m2' s) -> R0 m1' m2' -> R0 m1 m2.
Proof. intros E1 E2 H s r s'. rewrite E1, E2. apply H. Qed.

(* [R0 m m]: the runs of [m] keep the stacks balanced and do not panic (R0s_intro, R0s_inv) *)
Definition R0s {A} (m : M A) : Prop := R0 m m.

Lemma R0s_intro {A} (m : M A) :
  (forall s r s', m s = (r, s') -> Inv s s' /\ np r) -> R0s m.
Proof. intros H s r s' E _. split; [assumption|apply H; assumption]. Qed.
Lemma R0s_inv {A} (m : M A) s r s' : R0s m -> m s = (r, s') -> r <> Fuel -> Inv s s' /\ np r.
Proof. intros H E Hr. exact (proj2 (H s r s' E Hr)). Qed.

(* R0 at one start state *)
Definition RS {A} (s : st) (m1 m2 : M A) : Prop :=
  forall r s', m1 s = (r, s') -> r <> Fuel -> m2 s = (r, s') /\ Inv s s' /\ np r.

Lemma R0_RS {A} (m1 m2 : M A) : R0 m1 m2 -> forall s, RS s m1 m2.
Proof. intros H s r s'. apply H. Qed.
Lemma RS_R0 {A} (m1 m2 : M A) : (forall s, RS s m1 m2) -> R0 m1 m2.
Proof. intros H s r s'. apply H. Qed.

Lemma RS_pre {A} (P : st -> Prop) (m1 m2 : M A) :
  (forall s, P s -> RS s m1 m2) -> forall s, P s -> RS s m1 m2.
Proof. auto. Qed.

(* The pure helpers thread outcomes by hand, [match x with Ok a => .. | Panic n =>  *)
(* Panic n | ..]: such a match is np if its scrutinee is (by the database np, or by *)
(* [apply IH]; np_auto passes [I] where there is no induction) and its other       *)
(* branches are; a match on anything else is split.                                *)
Ltac np_step IH :=
  match goal with
  | |- np (match ?x with _ => _ end) =>
      lazymatch type of x with
      | res _ => let H := fresh "Hnp" in
                 assert (H : np x) by (first [solve [auto with np] | solve [apply IH]]);
                 destruct x; try discriminate H; clear H
      | _ => destruct x
      end
  | |- np (if ?x then _ else _) => destruct x
  end.
Ltac np_crush IH := repeat (np_step IH); auto with np.
Ltac np_auto := np_crush I.

Lemma car_of_np x : np (car_of x). Proof. destruct x; reflexivity. Qed.
Lemma cdr_of_np x : np (cdr_of x). Proof. destruct x; reflexivity. Qed.
#[export] Hint Resolve car_of_np cdr_of_np : np.

Lemma cxr_np p x : np (cxr p x).
Proof. induction p as [|b p IH]; simpl; [reflexivity|]. np_crush IH. Qed.
Lemma push2_np l x : np (push2 l x). Proof. unfold push2. np_auto. Qed.
Lemma append2_np l x : np (append2 l x). Proof. unfold append2. np_auto. Qed.
#[export] Hint Resolve cxr_np push2_np append2_np : np.

Section PureF.
Variable F : fops.

Lemma try_float_np x : np (try_float F x). Proof. destruct x; reflexivity. Qed.
Lemma as_int_np x : np (as_int x). Proof. destruct x; reflexivity. Qed.
Lemma try_int_np x : np (try_int F x). Proof. destruct x; reflexivity. Qed.
Lemma checked_np z : np (checked z). Proof. unfold checked. np_auto. Qed.
Lemma int_mod_np a b : np (int_mod a b). Proof. unfold int_mod. np_auto. Qed.
Hint Resolve try_float_np as_int_np try_int_np checked_np int_mod_np : np.
Lemma int_op_np o a b : np (int_op o a b). Proof. destruct o; simpl; np_auto. Qed.
Hint Resolve int_op_np : np.
(* binop and maxmin dispatch on [Flt] or not, first for [a], then for [b] *)
Lemma np_unless_flt {A} (x : sx) (f : Z -> res A) (y : res A) :
  (forall b, np (f b)) -> np y -> np (match x with Flt b => f b | _ => y end).
Proof. intros Hf Hy. destruct x; auto. Qed.
Lemma binop_np o a b : np (binop F o a b).
Proof.
  unfold binop. apply np_unless_flt; [intros s|apply np_unless_flt; [intros s|]]; np_auto.
Qed.
Lemma maxmin_np m a b : np (maxmin F m a b).
Proof.
  unfold maxmin. apply np_unless_flt; [intros s|apply np_unless_flt; [intros s|]]; np_auto.
Qed.
Lemma compare2_np c a b : np (compare2 F c a b). Proof. unfold compare2. np_auto. Qed.

Lemma nthcdr_nat_np n : forall l, np (nthcdr_nat n l).
Proof. induction n as [|n IH]; intros l; simpl; [reflexivity|]. destruct l; auto with np. Qed.
Hint Resolve nthcdr_nat_np : np.
Lemma nthcdr_np n l : np (nthcdr n l). Proof. unfold nthcdr. np_auto. Qed.
Hint Resolve nthcdr_np : np.
Lemma nth_np n l : np (nth n l). Proof. unfold nth. np_auto. Qed.
Lemma last_np l n : np (last l n). Proof. unfold last. np_auto. Qed.

Lemma plist_get_np : forall pl prop, np (plist_get pl prop).
Proof.
  fix IH 1. intros pl prop. destruct pl; try reflexivity. simpl.
  destruct (eq_model pl1 prop) as [[|]|]; try reflexivity.
  - destruct pl2; reflexivity.
  - destruct pl2; try reflexivity. apply IH.
Qed.

Lemma format_loop_np : forall inp args acc, np (format_loop F inp args acc).
Proof.
  fix IH 1. intros inp args acc. destruct inp as [|c r]; [reflexivity|]. simpl.
  destruct (negb (N.eqb c c_pct)); [apply IH|].
  destruct r as [|d r2]; [reflexivity|].
  destruct (N.eqb d c_pct); [apply IH|].
  destruct args as [|a args']; [reflexivity|].
  destruct (N.eqb d 115); [apply IH|].
  destruct (N.eqb d 83); [apply IH|].
  destruct (N.eqb d 100); [np_crush IH|].
  destruct (N.eqb d 102); [np_crush IH|].
  reflexivity.
Qed.

Lemma parse_params_loop_np : forall ps o r acc, np (parse_params_loop ps o r acc).
Proof.
  induction ps as [|p ps IH]; intros; simpl; [reflexivity|].
  destruct (sym_name p); [|reflexivity].
  destruct (text_eqb t n_optional); [apply IH|].
  destruct (text_eqb t n_rest); [apply IH|].
  destruct r; [destruct ps; reflexivity|apply IH].
Qed.
Lemma parse_params_np ps : np (parse_params ps).
Proof. unfold parse_params. destruct (listp ps); [apply parse_params_loop_np|reflexivity]. Qed.

Lemma fn_body_np r : np (fn_body r).
Proof. unfold fn_body. np_auto. Qed.
Lemma progn_on_rest_np r : np (progn_on_rest r).
Proof. unfold progn_on_rest. np_auto. Qed.
Lemma to_str_np x : np (to_str x). Proof. destruct x; reflexivity. Qed.
Lemma dolist_step_np l : np (dolist_step l). Proof. unfold dolist_step. np_auto. Qed.

Lemma ht_find_np l k : np (ht_find l k).
Proof. induction l as [|[k' v] l IH]; simpl; [reflexivity|]. np_crush IH. Qed.
Lemma ht_put_np l k v : np (ht_put l k v).
Proof. induction l as [|[k' v'] l IH]; simpl; [reflexivity|]. np_crush IH. Qed.
Lemma append_all_np : forall l acc, np (append_all acc l).
Proof. induction l as [|x l IH]; intros acc; simpl; [reflexivity|]. np_crush IH. Qed.
Lemma concat_l_np : forall l acc, np (concat_l l acc).
Proof. induction l as [|x l IH]; intros acc; simpl; [reflexivity|]. destruct x; auto with np. Qed.

Lemma thread_np first : forall fuel x forms, np (thread first fuel x forms).
Proof.
  induction fuel as [|fuel IH]; intros x forms; simpl; [reflexivity|].
  destruct forms as [|form more]; [reflexivity|]. destruct (null form); [reflexivity|].
  match goal with
  | |- np (match more with [] => ?one | _ => _ end) => assert (Hone : np one) by np_auto
  end.
  destruct more; [exact Hone|]. np_crush IH.
Qed.

End PureF.
#[export] Hint Resolve try_float_np as_int_np try_int_np checked_np int_mod_np int_op_np
  binop_np maxmin_np compare2_np nthcdr_nat_np nthcdr_np nth_np last_np plist_get_np
  format_loop_np parse_params_np fn_body_np progn_on_rest_np to_str_np dolist_step_np
  ht_find_np ht_put_np append_all_np concat_l_np thread_np : np.

Lemma mark_tail_np : forall fuel name body, np (mark_tail fuel name body).
Proof.
  induction fuel as [|fuel IH]; intros name body; [reflexivity|].
  cbn [mark_tail].
  destruct body; try reflexivity.
  destruct (last_and_init (items (Cons body1 body2))) as [[init tail]|]; [|reflexivity].
  destruct tail; try reflexivity.
  destruct (sym_name tail1) as [tn|]; [|reflexivity].
  destruct (sym_eq tail1 name); [reflexivity|].
  destruct (text_eqb tn n_progn || text_eqb tn n_let || text_eqb tn n_letstar).
  { np_crush IH. }
  destruct (text_eqb tn n_if).
  { np_crush IH. }
  destruct (text_eqb tn n_cond); [|reflexivity].
  match goal with
  | |- np (?f (items tail2) []) => assert (H : forall cs acc, np (f cs acc)); [|apply H]
  end.
  induction cs as [|c cs IHc]; intros acc; [reflexivity|].
  np_crush IH.
Qed.
#[export] Hint Resolve mark_tail_np : np.

Lemma R0s_same {A} (m : M A) :
  (forall s, store (snd (m s)) = store s /\ mlog (snd (m s)) = mlog s /\ np (fst (m s))) -> R0s m.
Proof.
  intros H. apply R0s_intro. intros s r s' E. specialize (H s). rewrite E in H.
  destruct H as (Hs & Hm & Hn). split; [apply Inv_same|]; assumption.
Qed.

Lemma sym_get_R0 x : R0s (sym_get x).
Proof.
  apply R0s_same. intros s. unfold sym_get.
  destruct (key_of x) as [k|]; [destruct (keywordp x); [|destruct (bitems (sget s k))]|]; repeat split.
Qed.

Lemma with_key_R0 x f : (forall k, R0s (f k)) -> R0s (with_key x f).
Proof.
  intros Hf. unfold R0s, with_key.
  destruct (key_of x); [destruct (is_constant x)|]; [apply R0_fail|apply Hf|apply R0_fail].
Qed.

Lemma sym_set_R0 x v : R0s (sym_set x v).
Proof.
  apply with_key_R0. intros k. apply R0s_intro. intros s r s' H. inv_pair H.
  split; [apply Inv_set|reflexivity].
Qed.
Lemma sym_set_global_R0 x v : R0s (sym_set_global x v).
Proof.
  apply with_key_R0. intros k. apply R0s_intro. intros s r s' H. inv_pair H.
  split; [apply Inv_set_global|reflexivity].
Qed.

Lemma sym_boundp_R0 x : R0s (sym_boundp x).
Proof. apply R0s_same. intros s. unfold sym_boundp. destruct (key_of x); repeat split. Qed.
Lemma lex_bound_R0 x : R0s (lex_bound x).
Proof. apply R0s_same. intros s. destruct x; repeat split. Qed.
Lemma fresh_id_R0 : R0s fresh_id.
Proof. apply R0s_same. repeat split. Qed.
Lemma set_flags_R0 n : R0s (set_flags n).
Proof. apply R0s_same. repeat split. Qed.
Lemma ht_store_R0 h l : R0s (ht_store h l).
Proof. apply R0s_same. repeat split. Qed.
Lemma ht_get_tab_R0 t : R0s (ht_get_tab t).
Proof.
  apply R0s_same. intros s. destruct t; simpl;
    try (destruct h as [h|]; [destruct (PositiveMap.find h (htabs s))|]); repeat split.
Qed.
Lemma find_file_R0 n : R0s (find_file n).
Proof. apply R0s_same. intros s. unfold find_file. destruct (find _ (files s)); repeat split. Qed.
Lemma do_tick_R0 F id v : R0s (do_tick F id v).
Proof.
  apply R0s_same. intros s. unfold do_tick.
  destruct (fail_at s) as [k|]; [destruct (N.eqb k _)|]; repeat split.
Qed.

Lemma sym_set_scope_spec x v s r s' :
  sym_set_scope x v s = (r, s') ->
  (r = Ok tt /\ exists k, key_of x = Some k /\ s' = sput s k (b_set_scope (sget s k) v)) \/
  (exists e, r = Err e /\ s' = s).
Proof.
  unfold sym_set_scope, with_key. intros H.
  destruct (key_of x) as [k|]; [|inv_pair H; right; eauto].
  destruct (is_constant x); inv_pair H; [right; eauto|left; eauto].
Qed.

(* sym_set_scope leaves one entry more; with note_defmacro, as in defmacro, mlog accounts for it *)
Lemma note_defmacro_after_scope {A} x v (a : A) :
  R0s (bind (sym_set_scope x v) (fun _ => bind (note_defmacro x) (fun _ => ret a))).
Proof.
  apply R0s_intro. intros s r s' H. unfold bind in H.
  destruct (sym_set_scope x v s) as [r1 s1] eqn:E.
  destruct (sym_set_scope_spec _ _ _ _ _ E) as [(-> & k & Ek & ->)|(e & -> & ->)]; inv_pair H.
  - split; [|reflexivity]. eapply Inv_defmacro; [reflexivity|]. simpl. rewrite Ek. reflexivity.
  - split; [apply Inv_refl|reflexivity].
Qed.

Create HintDb r0.
(* r0's goals are [R0 m m]; the hints below have head R0s *)
#[export] Hint Extern 3 (R0 ?m ?m') => constr_eq m m'; change (R0s m) : r0.
#[export] Hint Resolve sym_get_R0 sym_set_R0 sym_set_global_R0 sym_boundp_R0 lex_bound_R0
  fresh_id_R0 set_flags_R0 ht_store_R0 ht_get_tab_R0 find_file_R0 do_tick_R0 : r0.

Lemma sym_unset_RH x syms s0 E :
  RH (scope (x :: syms) s0) (sym_unset x) (sym_unset x) (fun _ => scope syms s0) E.
Proof.
  intros s r s' [Hk HB] H _. inversion Hk as [|? ? Hx Hk']; subst.
  unfold sym_unset in *. destruct (key_of x) as [k|] eqn:Ek; [|elim Hx; exact Ek].
  rewrite (keys_cons x syms k Ek) in HB.
  destruct (Bal_pop _ _ _ _ HB) as (b & Eb & HB'). rewrite Eb in H |- *. inv_pair H.
  split; [reflexivity|]. split; [reflexivity|]. split; assumption.
Qed.

Lemma unbind_all_RH s0 : forall syms,
  RH (scope syms s0) (unbind_all syms) (unbind_all syms) (fun _ => scope [] s0) (scope [] s0).
Proof.
  induction syms as [|x syms IH]; simpl unbind_all.
  - apply (RH_ret (fun _ => scope [] s0)).
  - eapply RH_bind; [apply sym_unset_RH|]. intros ? _. apply IH.
Qed.

Lemma sym_set_scope_RH x v bound s0 :
  RH (scope bound s0) (sym_set_scope x v) (sym_set_scope x v)
     (fun _ => scope (bound ++ [x]) s0) (scope bound s0).
Proof.
  intros s r s' [Hk HB] H _. split; [exact H|].
  destruct (sym_set_scope_spec _ _ _ _ _ H) as [(-> & k & Ek & ->)|(e & -> & ->)];
    (split; [reflexivity|]); [|split; assumption].
  split.
  - apply Forall_app. split; [exact Hk|]. constructor; [unfold has_key; congruence|constructor].
  - rewrite keys_app, (keys_cons x [] k Ek). apply Bal_push, HB.
Qed.

Lemma fail_with_RH {A} s0 bound e Q :
  RH (scope bound s0) (bind (unbind_all bound) (fun _ => @fail A e))
     (bind (unbind_all bound) (fun _ => fail e)) Q (scope [] s0).
Proof. eapply RH_bind; [apply unbind_all_RH|]. intros ? _. apply RH_fail. Qed.

(* one step of bind_all and of let_bind: [m] ends by binding [name], then the rest *)
(* of the loop; an error of [m] unbinds what is bound                             *)
Lemma scope_step {B} s0 bound name (m1 m2 : M unit) (K1 K2 : M B) Q :
  RH (scope bound s0) m1 m2 (fun _ => scope (bound ++ [name]) s0) (scope bound s0) ->
  RH (scope (bound ++ [name]) s0) K1 K2 Q (scope [] s0) ->
  RH (scope bound s0)
     (catch m1 (fun o => match o with
                         | Ok _ => K1
                         | Err e => bind (unbind_all bound) (fun _ => fail e)
                         | Panic n => panic n | Fuel => lift Fuel end))
     (catch m2 (fun o => match o with
                         | Ok _ => K2
                         | Err e => bind (unbind_all bound) (fun _ => fail e)
                         | Panic n => panic n | Fuel => lift Fuel end))
     Q (scope [] s0).
Proof.
  intros Hm HK. eapply RH_catch; [exact Hm|]. intros [u|e|n|] Hr N _; try discriminate N.
  - exact HK.
  - apply fail_with_RH.
  - congruence.
Qed.

Lemma bind_all_RH s0 : forall ps vs done,
  RH (scope done s0) (bind_all ps vs done) (bind_all ps vs done)
     (fun _ => scope (done ++ firstn (List.length vs) ps) s0) (scope [] s0).
Proof.
  induction ps as [|p ps IH]; intros vs done; destruct vs as [|v vs]; simpl;
    try (rewrite app_nil_r; apply (RH_ret (fun _ => scope done s0))).
  apply (scope_step s0 done p); [apply sym_set_scope_RH|].
  replace (done ++ p :: firstn (List.length vs) ps) with ((done ++ [p]) ++ firstn (List.length vs) ps)
    by (rewrite <- app_assoc; reflexivity).
  apply IH.
Qed.

(* bind the parameters, run [m], unbind *)
Definition frame {A} (syms : list sx) (m : M A) (vs : list sx) : M A :=
  bind (bind_all syms vs [])
       (fun _ => catch m (fun r => bind (unbind_all syms) (fun _ => lift r))).

Lemma frame_R {A} syms vs (m1 m2 : M A) : List.length vs = List.length syms ->
  R0 m1 m2 -> R0 (frame syms m1 vs) (frame syms m2 vs).
Proof.
  intros Hl Hm. apply RH_R0. intros s0. unfold frame.
  eapply RH_bind; [apply (bind_all_RH s0 syms vs [])|]. intros ? _. rewrite Hl, firstn_all.
  eapply RH_finally; [apply R0_RH, Hm|apply unbind_all_RH].
Qed.

(* inside dolist / dotimes the loop variable has a binding: set_unchecked *)
(* cannot reach its unwrap()                                              *)
Definition has_depth (var : sx) (s : st) : Prop :=
  forall k, key_of var = Some k -> 1 <= depth s k.

Lemma has_depth_Inv var s s' : has_depth var s -> Inv s s' -> has_depth var s'.
Proof. intros H I k Ek. specialize (H k Ek). specialize (I k). lia. Qed.

Lemma scope_has_depth var l s0 s : scope (var :: l) s0 s -> has_depth var s.
Proof.
  intros [_ HB] k Ek. specialize (HB k).
  rewrite (keys_cons var l k Ek), cnt_cons_same in HB. lia.
Qed.

Lemma set_unchecked_ok var v s r s' : has_depth var s ->
  sym_set_unchecked var v s = (r, s') -> r = Ok tt /\ Inv s s'.
Proof.
  intros Hd H. unfold sym_set_unchecked in H.
  destruct (key_of var) as [k|] eqn:Ek; [|inv_pair H; split; [reflexivity|apply Inv_refl]].
  specialize (Hd k Ek). unfold depth in Hd.
  destruct (bitems (sget s k)) eqn:Eb; [simpl in Hd; lia|].
  inv_pair H. split; [reflexivity|apply Inv_set].
Qed.

Lemma loop_bracket var v (body1 body2 : M sx) :
  (forall bound s0, (forall s, scope bound s0 s -> has_depth var s) ->
     RH (scope bound s0) body1 body2 (fun _ => scope bound s0) (scope bound s0)) ->
  R0 (bind (sym_set_scope var v)
           (fun _ => catch body1 (fun r => bind (sym_unset var) (fun _ => lift r))))
     (bind (sym_set_scope var v)
           (fun _ => catch body2 (fun r => bind (sym_unset var) (fun _ => lift r)))).
Proof.
  intros Hb. apply RH_R0. intros s0.
  eapply RH_bind; [apply (sym_set_scope_RH var v [])|]. intros ? _.
  eapply RH_finally; [apply Hb, scope_has_depth|apply sym_unset_RH].
Qed.

(* [r0] follows the structure of the computation on both sides (ret, fail, lift, a  *)
(* bind whatever it binds, a split on what both sides inspect), then [auto] with   *)
(* the database r0 and the context, for induction hypotheses and premises; it      *)
(* leaves what it cannot do.  The operations that are R0 only in a context         *)
(* (sym_set_scope, sym_unset, bind_all, unbind_all, let_bind: unbalanced alone;    *)
(* sym_set_unchecked: panics on an unbound variable) have RH lemmas and none in    *)
(* the database; the first two cases catch the shapes in which r0 meets one        *)
(* (defmacro, the bracket of dolist / dotimes).  A goal [R0 (sym_set_scope ..) _]  *)
(* left over is false: a binder of another shape has been split, and goes through  *)
(* RH_R0 by hand, as in do_let_R.  The hints of Section Rel end with it: Tramp.v   *)
(* applies its lemmas by name.                                                     *)
Ltac r0 :=
  repeat first
    [ match goal with
      | |- R0 (bind (sym_set_scope _ _) (fun _ => bind (note_defmacro _) _)) _ =>
          apply note_defmacro_after_scope
      | |- R0 (bind (sym_set_scope _ _) (fun _ => catch _ _)) _ => apply loop_bracket
      | |- R0 (ret _) _ => apply R0_ret
      | |- R0 (fail _) _ => apply R0_fail
      | |- R0 (bind _ _) _ => apply R0_bind; [ | intros ? ]
      | |- R0 (lift _) _ => apply R0_lift; solve [auto with np]
      | |- R0 (match ?x with _ => _ end) (match ?x with _ => _ end) =>
          destruct x
      | |- R0 (if ?x then _ else _) (if ?x then _ else _) => destruct x
      end
    | solve [auto with r0] ].

Lemma capture_symbol_R excl caps x : R0s (capture_symbol excl caps x).
Proof. unfold R0s, capture_symbol. r0. Qed.
#[export] Hint Resolve capture_symbol_R : r0.

Lemma capture_walk_R excl : forall x caps, R0s (capture excl caps x).
Proof.
  unfold R0s. induction x; intros caps.
  9: { (* Cons: the walk of the car, then of the cdr *)
    apply (R0_ext _ _ _ _ (capture_cons_eq excl caps x1 x2) (capture_cons_eq excl caps x1 x2)). r0. }
  all: simpl; r0.
Qed.

Lemma capture_R excl : forall n x caps, sx_size x <= n -> R0s (capture excl caps x).
Proof. intros n x caps _. apply capture_walk_R. Qed.
#[export] Hint Resolve capture_walk_R : r0.

Lemma build_binding_R b prev : R0s (build_binding b prev).
Proof. unfold R0s, build_binding. r0. Qed.
#[export] Hint Resolve build_binding_R : r0.
Lemma build_bindings_R : forall bs prev acc, R0s (build_bindings bs prev acc).
Proof. unfold R0s. induction bs as [|b bs IH]; intros; simpl; r0. Qed.
#[export] Hint Resolve build_bindings_R : r0.

Lemma zip_args_len e rec : forall ps args s vs rest s',
  zip_args rec e ps args s = (Ok (vs, rest), s') -> List.length vs = List.length ps.
Proof.
  induction ps as [|p ps IH]; intros args s vs rest s' H; simpl in H; [inv_pair H; reflexivity|].
  (* a branch that succeeds ends by consing one value onto the values of the other parameters *)
  assert (T : forall args' v s1,
             ('(vs0, rest0) <- zip_args rec e ps args' ;; ret (v :: vs0, rest0)) s1 = (Ok (vs, rest), s') ->
             List.length vs = S (List.length ps)).
  { intros args' v s1 H1. apply bind_ok in H1 as ([vs0 rest0] & s2 & Hz & Hr).
    inv_pair Hr. simpl. f_equal. eapply IH, Hz. }
  destruct (p_opt p); [|destruct (p_rest p)]; try destruct args as [|a args']; try discriminate H;
    first [eapply T, H | apply bind_ok in H as (v & s1 & _ & H); eapply T, H].
Qed.

(* TDotimes runs inside the bracket of dotimes, where its variable has a binding.  *)
(* Its count is bounded by no term, so its iterations are tasks and what the      *)
(* bracket ensures is carried to them as a precondition; the loop of dolist is a  *)
(* Fixpoint on its list within the step that holds the bracket, and needs none.   *)
Definition pre (t : task) (s : st) : Prop :=
  match t with
  | TDotimes var _ _ _ => forall k, key_of var = Some k -> 1 <= depth s k
  | _ => True
  end.

Definition RT (t : task) (m1 m2 : M sx) : Prop :=
  forall s r s', m1 s = (r, s') -> r <> Fuel -> pre t s ->
                 m2 s = (r, s') /\ Inv s s' /\ np r.

Lemma R0_RT t m1 m2 : R0 m1 m2 -> RT t m1 m2.
Proof. intros H s r s' E Hr _. apply H; assumption. Qed.

Lemma RH_RT t m1 m2 :
  (forall s0, pre t s0 -> RH (scope [] s0) m1 m2 (fun _ => scope [] s0) (scope [] s0)) -> RT t m1 m2.
Proof.
  intros H s r s' E Hr Hp. destruct (H s Hp s r s' (scope_nil _ _ (Inv_refl s)) E Hr) as (E2 & N & HA).
  split; [exact E2|]. split; [destruct r; apply HA|exact N].
Qed.

Section Rel.
Variable F : fops.
Variables rec1 rec2 : task -> M sx.
Variables load1 load2 : text -> M sx.
Hypothesis Hrec : forall t, RT t (rec1 t) (rec2 t).
Hypothesis Hload : forall t, R0 (load1 t) (load2 t).

Lemma rec_R t : (forall s, pre t s) -> R0 (rec1 t) (rec2 t).
Proof. intros Hp s r s' H Hr. apply (Hrec t); auto. Qed.

Lemma ev_R x : R0 (ev rec1 x) (ev rec2 x).
Proof. apply (rec_R (TEval x)). exact (fun _ => I). Qed.
Lemma call_R e f a : R0 (call rec1 e f a) (call rec2 e f a).
Proof. apply (rec_R (TCall e f a)). exact (fun _ => I). Qed.
Lemma expand_R x : R0 (expand rec1 x) (expand rec2 x).
Proof. apply (rec_R (TExpand x)). exact (fun _ => I). Qed.
Lemma while_R c b l : R0 (rec1 (TWhile c b l)) (rec2 (TWhile c b l)).
Proof. apply rec_R. exact (fun _ => I). Qed.
Lemma tramp_R p b r0 : R0 (rec1 (TTramp p b r0)) (rec2 (TTramp p b r0)).
Proof. apply rec_R. exact (fun _ => I). Qed.
Hint Resolve ev_R call_R expand_R while_R tramp_R : r0.
(* [ev] and [expand] unfolded, as readtime writes them *)
Hint Extern 1 (R0 (rec1 (TEval _)) _) => apply ev_R : r0.
Hint Extern 1 (R0 (rec1 (TExpand _)) _) => apply expand_R : r0.
Hint Extern 1 (R0 (load1 _) _) => apply Hload : r0.

Lemma eval_progn_l_R : forall l last, R0 (eval_progn_l rec1 l last) (eval_progn_l rec2 l last).
Proof. induction l as [|x l IH]; intros; simpl; r0. Qed.
Lemma eval_progn_R b : R0 (eval_progn rec1 b) (eval_progn rec2 b).
Proof. apply eval_progn_l_R. Qed.
Lemma eval_each_R : forall l, R0 (eval_each rec1 l) (eval_each rec2 l).
Proof. induction l as [|x l IH]; simpl; r0. Qed.
Hint Resolve eval_progn_l_R eval_progn_R eval_each_R : r0.

Lemma arg_req_R e a : R0 (arg_req rec1 e a) (arg_req rec2 e a).
Proof. unfold arg_req. r0. Qed.
Lemma arg_opt_R e a : R0 (arg_opt rec1 e a) (arg_opt rec2 e a).
Proof. unfold arg_opt. r0. Qed.
Lemma arg_rest_R e a : R0 (arg_rest rec1 e a) (arg_rest rec2 e a).
Proof. unfold arg_rest. r0. Qed.
Lemma zip_args_R e : forall ps args, R0 (zip_args rec1 e ps args) (zip_args rec2 e ps args).
Proof. induction ps as [|p ps IH]; intros args; simpl; r0. Qed.
Hint Resolve arg_req_R arg_opt_R arg_rest_R zip_args_R : r0.

(* a call with any computation [m] in place of the body *)
Definition enter (rec : task -> M sx) (e : bool) (psx : sx) (m : M sx) (args : sx) : M sx :=
  ps <- lift (parse_params psx) ;;
  '(vs, rest) <- zip_args rec e ps (items args) ;;
  match rest with
  | _ :: _ => fail EType
  | [] => frame (map p_sym ps) m vs
  end.

Lemma eval_function_enter rec e ps body args :
  eval_function rec e ps body args = enter rec e ps (eval_progn rec body) args.
Proof. reflexivity. Qed.

Lemma enter_R e ps (m1 m2 : M sx) args :
  R0 m1 m2 -> R0 (enter rec1 e ps m1 args) (enter rec2 e ps m2 args).
Proof.
  intros Hm. unfold enter. apply R0_bind; [r0|]. intros pl. apply RH_R0. intros s0.
  eapply RH_bind; [apply R0_RH, zip_args_R|]. intros [vs rest] (s & s' & Hz).
  destruct rest; [|apply RH_fail].
  apply R0_RH, frame_R; [|exact Hm]. rewrite map_length. eapply zip_args_len; eassumption.
Qed.

Lemma eval_function_R e ps body args :
  R0 (eval_function rec1 e ps body args) (eval_function rec2 e ps body args).
Proof. rewrite !eval_function_enter. apply enter_R, eval_progn_R. Qed.
Hint Resolve eval_function_R : r0.

(* eval_bq and its spine loop call each other: one structural induction for both; *)
(* [apply] takes the part of the conjunction it needs                             *)
Lemma eval_bq_spine_R x :
  R0 (eval_bq rec1 x) (eval_bq rec2 x) /\
  forall acc, R0 (bq_spine rec1 x acc) (bq_spine rec2 x acc).
Proof.
  induction x; try destruct IHx as [IHx _].
  9: { (* Cons: the loop, for both parts *)
    destruct IHx1 as [IHa _], IHx2 as [_ IHd].
    assert (HS : forall acc, R0 (bq_spine rec1 (Cons x1 x2) acc) (bq_spine rec2 (Cons x1 x2) acc))
      by (intros acc; cbn [bq_spine]; r0).
    split; [rewrite !eval_bq_cons; apply HS|exact HS]. }
  all: split; [simpl; r0|intros acc; simpl; r0].
Qed.

Lemma eval_bq_R : forall n x, sx_size x <= n -> R0 (eval_bq rec1 x) (eval_bq rec2 x).
Proof. intros n x _. apply eval_bq_spine_R. Qed.
Hint Extern 1 (R0 (eval_bq _ _) _) => apply eval_bq_spine_R : r0.

Lemma merge_fuel_R pred : forall fuel l r acc,
  R0 (merge_fuel rec1 fuel pred l r acc) (merge_fuel rec2 fuel pred l r acc).
Proof. induction fuel as [|fuel IH]; intros; simpl; r0. Qed.
Hint Resolve merge_fuel_R : r0.
Lemma msort_R pred : forall fuel l,
  R0 (msort rec1 fuel pred l) (msort rec2 fuel pred l).
Proof. induction fuel as [|fuel IH]; intros; simpl; r0. Qed.

Lemma assoc_find_R (t1 t2 : sx -> M bool) :
  (forall k, R0 (t1 k) (t2 k)) -> forall al, R0 (assoc_find t1 al) (assoc_find t2 al).
Proof. intros Ht. induction al; simpl; r0. Qed.
Lemma assoc_R F' k al tf : R0 (assoc F' rec1 k al tf) (assoc F' rec2 k al tf).
Proof. unfold assoc. r0; apply assoc_find_R; intros; r0. Qed.

Lemma reduce_rest_R op : (forall a b, np (op a b)) ->
  forall rest acc, R0 (reduce_rest rec1 op acc rest) (reduce_rest rec2 op acc rest).
Proof. intros Hop. induction rest; intros acc; simpl; r0. Qed.
Lemma reduce_with_R op args : (forall a b, np (op a b)) ->
  R0 (reduce_with rec1 op args) (reduce_with rec2 op args).
Proof. intros Hop. unfold reduce_with. r0; apply reduce_rest_R; assumption. Qed.
Hint Extern 1 (R0 (reduce_with _ _ _) _) => apply reduce_with_R; intros; auto with np : r0.

Lemma predicate_R args (f : sx -> M bool) : (forall v, R0 (f v) (f v)) ->
  R0 (predicate rec1 args f) (predicate rec2 args f).
Proof. intros Hf. unfold predicate. r0. Qed.
Hint Extern 1 (R0 (predicate _ _ _) _) => apply predicate_R; intros; r0 : r0.
Lemma string_cmp_R args f : R0 (string_cmp rec1 args f) (string_cmp rec2 args f).
Proof. unfold string_cmp. r0. Qed.

Lemma compare_chain_R c : forall l prev holds,
  R0 (compare_chain F rec1 c l prev holds) (compare_chain F rec2 c l prev holds).
Proof. induction l as [|x l IH]; intros; simpl; r0. Qed.
Lemma and_l_R : forall l last, R0 (and_l rec1 l last) (and_l rec2 l last).
Proof. induction l as [|x l IH]; intros; simpl; r0. Qed.
Lemma or_l_R : forall l, R0 (or_l rec1 l) (or_l rec2 l).
Proof. induction l as [|x l IH]; intros; simpl; r0. Qed.
Lemma cond_l_R : forall l, R0 (cond_l rec1 l) (cond_l rec2 l).
Proof. induction l as [|x l IH]; intros; simpl; r0. Qed.
Lemma map_l_R f : forall l, R0 (map_l rec1 f l) (map_l rec2 f l).
Proof. induction l as [|x l IH]; intros; simpl; r0. Qed.
Lemma filter_l_R f : forall l, R0 (filter_l rec1 f l) (filter_l rec2 f l).
Proof. induction l as [|x l IH]; intros; simpl; r0. Qed.
Lemma reduce_l_R f : forall l acc, R0 (reduce_l rec1 f l acc) (reduce_l rec2 f l acc).
Proof. induction l as [|x l IH]; intros; simpl; r0. Qed.
Lemma find_l_R f : forall l, R0 (find_l rec1 f l) (find_l rec2 f l).
Proof. induction l as [|x l IH]; intros; simpl; r0. Qed.
Hint Resolve msort_R assoc_R string_cmp_R compare_chain_R
  and_l_R or_l_R cond_l_R map_l_R filter_l_R reduce_l_R find_l_R : r0.

Lemma ev_bind_RH s0 bound name value :
  RH (scope bound s0)
     (bind (ev rec1 value) (fun val => sym_set_scope name val))
     (bind (ev rec2 value) (fun val => sym_set_scope name val))
     (fun _ => scope (bound ++ [name]) s0) (scope bound s0).
Proof.
  eapply RH_bind; [apply R0_RH, ev_R|]. intros val _. apply sym_set_scope_RH.
Qed.

Lemma let_bind_RH s0 : forall vars bound,
  RH (scope bound s0) (let_bind rec1 vars bound) (let_bind rec2 vars bound)
     (fun bound' => scope bound' s0) (scope [] s0).
Proof.
  induction vars as [|v vars IH]; intros bound; cbn [let_bind];
    [apply (RH_ret (fun bound' => scope bound' s0))|].
  destruct (symbolp v); [apply (scope_step s0 bound v); [apply sym_set_scope_RH|apply IH]|].
  destruct v; try apply fail_with_RH. destruct v2; try apply fail_with_RH.
  - destruct (null v1); [apply fail_with_RH|].
    apply (scope_step s0 bound v1); [apply ev_bind_RH|apply IH].
  - destruct (null v1); [apply fail_with_RH|]. destruct (negb (null v2_2)); [apply fail_with_RH|].
    apply (scope_step s0 bound v1); [apply ev_bind_RH|apply IH].
Qed.

Lemma do_let_R args : R0 (do_let rec1 args) (do_let rec2 args).
Proof.
  unfold do_let. apply R0_bind; [r0|]. intros [varlist rest].
  destruct (negb (listp rest)); [r0|]. apply RH_R0. intros s0.
  eapply RH_bind; [apply (let_bind_RH s0 (items varlist) [])|]. intros bound _.
  eapply RH_finally; [apply R0_RH, eval_progn_R|apply unbind_all_RH].
Qed.
Hint Resolve do_let_R : r0.

Section Loop.
Variables (var : sx) (bound : list sx) (s0 : st).
Hypothesis Hd : forall s, scope bound s0 s -> has_depth var s.
Let P := scope bound s0.

Lemma set_unchecked_RH v :
  RH P (sym_set_unchecked var v) (sym_set_unchecked var v) (fun _ => P) P.
Proof.
  intros s r s' Hs H _. destruct (set_unchecked_ok _ _ _ _ _ (Hd _ Hs) H) as (-> & I).
  split; [exact H|]. split; [reflexivity|exact (scope_Inv _ _ _ _ Hs I)].
Qed.

Lemma dolist_loop_RH body : forall n lst,
  RH P (dolist_loop rec1 n var lst body) (dolist_loop rec2 n var lst body) (fun _ => P) P.
Proof.
  induction n as [|n IH]; intros lst; simpl; [apply R0_RH; r0|].
  destruct (truthy lst); [|apply R0_RH; r0].
  eapply RH_bind; [apply R0_RH; r0|]. intros ? _.
  eapply RH_bind; [apply R0_RH; r0|]. intros [next c] _.
  eapply RH_bind; [apply set_unchecked_RH|]. intros ? _. apply IH.
Qed.

Lemma dotimes_RH i n body :
  RH P (rec1 (TDotimes var i n body)) (rec2 (TDotimes var i n body)) (fun _ => P) P.
Proof.
  intros s r s' Hs H Hr. destruct (Hrec _ _ _ _ H Hr (Hd _ Hs)) as (E2 & I & N).
  split; [exact E2|]. split; [exact N|]. destruct r; exact (scope_Inv _ _ _ _ Hs I).
Qed.
End Loop.

Lemma apply_pmac_R m args : R0 (apply_pmac rec1 m args) (apply_pmac rec2 m args).
Proof. destruct m; cbn [apply_pmac]; r0. Qed.

Lemma apply_prim_R p args :
  R0 (apply_prim F rec1 load1 p args) (apply_prim F rec2 load2 p args).
Proof.
  destruct p; cbn [apply_prim]; r0.
  (* Three goals are left, in the order of the constructors of [prim].  A new primitive *)
  (* leaves none if its pure helpers have _np lemmas in the database np (one of PureF:   *)
  (* in the list after it too) and it binds nothing, or in a shape that r0 knows.        *)
  - (* /: the loop over the divisors *)
    match goal with |- R0 (_ ?acc ?ds) _ => revert acc; induction ds as [|d ds IHd]; intros acc end;
      cbn; [r0|].
    apply R0_bind; [r0|]. intros acc'. apply IHd.
  - (* dolist: what runs between binding the variable and unbinding it *)
    intros bound st0 Hd.
    eapply RH_bind; [apply dolist_loop_RH, Hd|]. intros ? _.
    eapply RH_bind; [apply set_unchecked_RH, Hd|]. intros ? _. apply R0_RH; r0.
  - (* dotimes: the same *)
    intros bound st0 Hd.
    eapply RH_bind; [apply dotimes_RH, Hd|]. intros ? _.
    eapply RH_bind; [apply set_unchecked_RH, Hd|]. intros ? _. apply R0_RH; r0.
Qed.
Hint Resolve apply_pmac_R apply_prim_R : r0.

Lemma expand_spine_R : forall d a acc,
  R0 (expand_spine rec1 a d acc) (expand_spine rec2 a d acc).
Proof.
  induction d; intros a acc; cbn [expand_spine]; (apply R0_bind; [r0|intros a']); solve [r0].
Qed.

Lemma step_R t : RT t (step F rec1 load1 t) (step F rec2 load2 t).
Proof.
  destruct t; cbn [step].
  - (* TEval *) apply R0_RT. destruct x; r0.
  - (* TCall *) apply R0_RT. destruct fn; r0.
  - (* TWhile *) apply R0_RT. r0.
  - (* TTramp *) apply R0_RT. r0.
  - (* TDotimes *)
    apply RH_RT. intros s0 Hd.
    assert (Hd' : forall x, scope [] s0 x -> has_depth var x)
      by (intros x [_ I]; exact (has_depth_Inv _ _ _ Hd I)).
    destruct (i <? n)%Z; [|apply R0_RH; r0].
    eapply RH_bind; [apply set_unchecked_RH, Hd'|]. intros ? _.
    eapply RH_bind; [apply R0_RH; r0|]. intros ? _. apply dotimes_RH, Hd'.
  - (* TExpand *) apply R0_RT.
    destruct x; try solve [r0].
    apply R0_bind.
    { apply R0_catch; [r0|]. intros r0' _ Hn. destruct r0'; try discriminate Hn; r0. }
    intros value. apply R0_bind; [r0|]. intros x.
    destruct x; try solve [r0]. apply expand_spine_R.
Qed.

Lemma readtime_all_of_R l :
  Forall (fun x => R0 (readtime rec1 x) (readtime rec2 x)) l ->
  R0 (readtime_all rec1 l) (readtime_all rec2 l).
Proof. induction 1; simpl; r0. Qed.

Lemma readtime_R x : R0 (readtime rec1 x) (readtime rec2 x).
Proof.
  induction x as [xs tl sp IHxs IHtl| | | | |x Hx] using ax_ind';
    try solve [cbn [readtime]; r0]; [|destruct x; solve [contradiction|cbn [readtime]; r0]].
  rewrite !readtime_list. apply R0_bind; [apply readtime_all_of_R, IHxs|intros elems].
  apply R0_bind; [|intros; r0]. destruct tl; [|r0].
  apply R0_bind; [apply IHtl; reflexivity|intros; r0].
Qed.

Lemma readtime_all_R l : R0 (readtime_all rec1 l) (readtime_all rec2 l).
Proof. apply readtime_all_of_R, Forall_forall. intros x _. apply readtime_R. Qed.

Lemma read_ax_np fl t : np (read_ax F fl t).
Proof. destruct (read_ax_total F fl t) as [(forms & ->)| ->]; reflexivity. Qed.

Lemma parse_body_R t : R0 (parse_body F rec1 t) (parse_body F rec2 t).
Proof.
  apply (R0_ext _ _ _ _ (parse_body_eq F rec1 t) (parse_body_eq F rec2 t)).
  apply R0_bind; [apply R0s_same; intros s; repeat split; apply read_ax_np|]. intros forms.
  apply R0_bind; [apply readtime_all_R|intros; r0].
Qed.

Lemma run_body_R t : R0 (run_body F rec1 t) (run_body F rec2 t).
Proof. unfold run_body. apply R0_bind; [apply parse_body_R|]. intros. r0. Qed.
End Rel.

Section Run.
Variable F : fops.

Lemma run_S f t : run F (S f) t = step F (run F f) (run_body F (run F f)) t.
Proof. reflexivity. Qed.

Lemma run_succ : forall f t, RT t (run F f t) (run F (S f) t).
Proof.
  induction f as [|f IH]; intros t.
  - intros s r s' H Hr _. inv_pair H. congruence.
  - rewrite !run_S. apply step_R; [exact IH|]. intros txt. apply run_body_R. exact IH.
Qed.

(* fuel monotonicity: an outcome other than Fuel is final *)
Theorem run_mono f f' t s r s' :
  run F f t s = (r, s') -> r <> Fuel -> pre t s -> f <= f' -> run F f' t s = (r, s').
Proof.
  intros H Hr Hp Hle. induction Hle as [|f' Hle IH]; [assumption|].
  apply (run_succ f' t s r s' IH Hr Hp).
Qed.

(* every task: binding stacks balanced, no panic; for every outcome *)
Theorem run_inv f t s r s' :
  run F f t s = (r, s') -> r <> Fuel -> pre t s -> Inv s s' /\ np r.
Proof. intros H Hr Hp. apply (run_succ f t s r s' H Hr Hp). Qed.

Lemma run_RT_le g g' : g <= g' -> forall t, RT t (run F g t) (run F g' t).
Proof.
  intros Hle t s r s' H Hr Hp. split; [eapply run_mono; eassumption|]. eapply run_inv; eassumption.
Qed.

Lemma run_self f t : RT t (run F f t) (run F f t).
Proof. apply run_RT_le, le_n. Qed.

Theorem eval_string_inv f t s r s' :
  eval_string F f t s = (r, s') -> r <> Fuel -> Inv s s' /\ np r.
Proof. apply (R0s_inv (eval_string F f t)). apply run_body_R, run_self. Qed.

Theorem eval_string_mono f f' t s r s' :
  eval_string F f t s = (r, s') -> r <> Fuel -> f <= f' -> eval_string F f' t s = (r, s').
Proof.
  intros H Hr Hle. apply (run_body_R F (run F f) (run F f') (run_RT_le f f' Hle) t s r s' H Hr).
Qed.

Theorem eval_file_inv f n s r s' :
  eval_file F f n s = (r, s') -> r <> Fuel -> Inv s s' /\ np r.
Proof.
  apply (R0s_inv (eval_file F f n)). apply R0_bind; [apply find_file_R0|].
  intros body. apply run_body_R, run_self.
Qed.

Theorem parse_string_inv f t s r s' :
  parse_string F f t s = (r, s') -> r <> Fuel -> Inv s s' /\ np r.
Proof. apply (R0s_inv (parse_string F f t)). apply parse_body_R, run_self. Qed.

End Run.
