(* C12: the list functions of Model/Eval.v against the Coq standard library. *)
From TL Require Import Base.Base Model.Reader Model.Printer Model.Store Model.Eval Model.Init.
Local Open Scope Z_scope.

(* list values are written [of_list xs t]: proper with t = Nil, dotted with a t that is no cons *)
Definition atom_tail (t : sx) : Prop := forall a d, t <> Cons a d.

Lemma atom_tail_nil : atom_tail Nil.
Proof. intros a d. discriminate. Qed.

Lemma items_proper xs : items (of_list xs Nil) = xs.
Proof. apply items_of_list, atom_tail_nil. Qed.

Lemma tail_of_list xs t : atom_tail t -> tail_of (of_list xs t) = t.
Proof.
  intros Ht. induction xs as [|x xs IH]; [|exact IH].
  destruct t; try reflexivity. exfalso. eapply Ht. reflexivity.
Qed.

Theorem car_cons a b : cxr [true] (Cons a b) = Ok a.  Proof. reflexivity. Qed.
Theorem cdr_cons a b : cxr [false] (Cons a b) = Ok b. Proof. reflexivity. Qed.
Theorem car_nil : cxr [true] Nil = Ok Nil.  Proof. reflexivity. Qed.
Theorem cdr_nil : cxr [false] Nil = Ok Nil. Proof. reflexivity. Qed.

(* a path applies its last letter first: (cadr x) = (car (cdr x)) *)
Theorem cxr_compose p q x :
  cxr (p ++ q) x = match cxr q x with Ok v => cxr p v | e => e end.
Proof.
  induction p as [|b p IH]; simpl.
  - destruct (cxr q x); reflexivity.
  - rewrite IH. destruct (cxr q x); reflexivity.
Qed.

(* the registered names c[ad]{1,4}r spell their own path *)
Definition letter (b : bool) : ascii := if b then "a"%char else "d"%char.
Definition cxr_name (p : list bool) : string :=
  String "c" (fold_right (fun b s => String (letter b) s) "r"%string p).
Theorem cxr_table_names :
  forallb (fun e => String.eqb (fst e) (cxr_name (snd e))) cxr_table = true.
Proof. vm_compute. reflexivity. Qed.
(* a fixed table: removing duplicates from its paths computes to the same list *)
Theorem cxr_table_complete : List.length cxr_table = 30%nat /\ NoDup (map snd cxr_table).
Proof.
  split; [reflexivity|].
  exact (NoDup_nodup (list_eq_dec Bool.bool_dec) (map snd cxr_table)).
Qed.

Lemma nthcdr_nat_skipn : forall n xs t, (n <= List.length xs)%nat ->
  nthcdr_nat n (of_list xs t) = Ok (of_list (skipn n xs) t).
Proof.
  induction n as [|n IH]; intros xs t Hn; [reflexivity|].
  destruct xs as [|x xs]; simpl in *; [lia|]. apply IH. lia.
Qed.

(* on a proper list there is no bound: past the end the loop stays at nil *)
Lemma nthcdr_nat_proper : forall n xs,
  nthcdr_nat n (of_list xs Nil) = Ok (of_list (skipn n xs) Nil).
Proof.
  induction n as [|n IH]; intros [|x xs]; try reflexivity. apply IH.
Qed.

(* steps beyond the end of the spine change nothing: at nil the loop stays, *)
(* at any other tail it has failed already                                  *)
Lemma nthcdr_nat_clamp : forall k l, (List.length (items l) < k)%nat ->
  nthcdr_nat k l = nthcdr_nat (S (List.length (items l))) l.
Proof.
  induction k as [|k IH]; intros l Hk; [lia|].
  destruct l; try reflexivity. apply (IH l2). simpl in Hk. lia.
Qed.

(* so the bound on the counter in nthcdr is invisible *)
Lemma nthcdr_eq n l : nthcdr n l = nthcdr_nat (Z.to_nat n) l.
Proof.
  unfold nthcdr. destruct (Z.leb_spec n 0) as [Hn|Hn].
  - replace (Z.to_nat n) with 0%nat by lia. reflexivity.
  - rewrite Z2Nat.inj_min, Nat2Z.id.
    destruct (Nat.min_spec (Z.to_nat n) (S (List.length (items l)))) as [[_ ->]|[Hl ->]];
      [reflexivity|].
    symmetry. apply nthcdr_nat_clamp, Hl.
Qed.

Theorem nthcdr_spec n xs :
  nthcdr n (of_list xs Nil) = Ok (of_list (skipn (Z.to_nat n) xs) Nil).
Proof. rewrite nthcdr_eq. apply nthcdr_nat_proper. Qed.

Theorem nthcdr_negative n l : n <= 0 -> nthcdr n l = Ok l.
Proof. intros H. unfold nthcdr. apply Z.leb_le in H. rewrite H. reflexivity. Qed.

(* dotted list: defined up to and including the tail position *)
Theorem nthcdr_dotted n xs t : n <= Z.of_nat (List.length xs) ->
  nthcdr n (of_list xs t) = Ok (of_list (skipn (Z.to_nat n) xs) t).
Proof. intros Hn. rewrite nthcdr_eq. apply nthcdr_nat_skipn. lia. Qed.

Theorem nth_is_car_nthcdr n l :
  nth n l = match nthcdr n l with Ok x => cxr [true] x | e => e end.
Proof. unfold nth. destruct (nthcdr n l); reflexivity. Qed.

Lemma car_of_list xs : car_of (of_list xs Nil) = Ok (List.hd Nil xs).
Proof. destruct xs; reflexivity. Qed.

Lemma hd_skipn (d : sx) : forall k xs, List.hd d (skipn k xs) = List.nth k xs d.
Proof. induction k as [|k IH]; intros [|x xs]; simpl; auto. Qed.

Theorem nth_spec n xs : nth n (of_list xs Nil) = Ok (List.nth (Z.to_nat n) xs Nil).
Proof. unfold nth. rewrite nthcdr_spec, car_of_list, hd_skipn. reflexivity. Qed.

Theorem length_spec xs : length_z (of_list xs Nil) = Z.of_nat (List.length xs).
Proof. unfold length_z. rewrite items_proper. reflexivity. Qed.

Theorem last_n_spec xs n : 0 <= n ->
  last (of_list xs Nil) (Some n) =
  Ok (of_list (skipn (List.length xs - Z.to_nat n) xs) Nil).
Proof.
  intros Hn. destruct xs as [|x xs]; [reflexivity|].
  unfold last. cbn [of_list]. change (Cons x (of_list xs Nil)) with (of_list (x :: xs) Nil).
  rewrite length_spec. destruct (Z.ltb_spec n 0); [lia|].
  destruct (Z.ltb_spec n (Z.of_nat (List.length (x :: xs)))).
  - rewrite nthcdr_spec. do 3 f_equal. lia.
  - replace (List.length (x :: xs) - Z.to_nat n)%nat with 0%nat by lia. reflexivity.
Qed.

Lemma last_default l : last l None = last l (Some 1).
Proof.
  destruct l; try reflexivity. unfold last.
  destruct (Z.ltb_spec 1 (length_z (Cons l1 l2))); [reflexivity|].
  apply nthcdr_negative. lia.
Qed.

Theorem last_spec xs x : last (of_list (xs ++ [x]) Nil) None = Ok (Cons x Nil).
Proof.
  rewrite last_default, last_n_spec, app_length, Nat.add_sub, skipn_app by lia.
  rewrite skipn_all, Nat.sub_diag. reflexivity.
Qed.

Lemma append2_proper xs v : xs <> [] -> append2 (of_list xs Nil) v = Ok (of_list xs v).
Proof.
  destruct xs as [|x xs]; [congruence|]. intros _. simpl.
  rewrite tail_of_list, items_proper by apply atom_tail_nil. reflexivity.
Qed.

Theorem append_dotted xs ys t : xs <> [] ->
  append2 (of_list xs Nil) (of_list ys t) = Ok (of_list (xs ++ ys) t).
Proof. intros Hx. rewrite append2_proper, of_list_app by assumption. reflexivity. Qed.

Theorem append2_app xs ys : append2 (of_list xs Nil) (of_list ys Nil) = Ok (of_list (xs ++ ys) Nil).
Proof.
  destruct xs as [|x xs]; [destruct ys; reflexivity|]. apply append_dotted. discriminate.
Qed.

Theorem length_append xs ys r :
  append2 (of_list xs Nil) (of_list ys Nil) = Ok r ->
  length_z r = length_z (of_list xs Nil) + length_z (of_list ys Nil).
Proof.
  rewrite append2_app. intros [= <-].
  rewrite !length_spec, app_length. lia.
Qed.

Theorem append_all_concat : forall ls acc,
  append_all (of_list acc Nil) (map (fun l => of_list l Nil) ls)
  = Ok (of_list (acc ++ List.concat ls) Nil).
Proof.
  induction ls as [|l ls IH]; intros acc; simpl.
  - rewrite app_nil_r. reflexivity.
  - rewrite append2_app. rewrite IH. rewrite app_assoc. reflexivity.
Qed.

Section HigherOrder.
Variable rec : task -> M sx.

(* a function value [f] that behaves as the pure function [g] when called *)
Definition pure1 (f : sx) (g : sx -> sx) : Prop :=
  forall x s, rec (TCall false f (Cons x Nil)) s = (Ok (g x), s).
Definition pure2 (f : sx) (g : sx -> sx -> sx) : Prop :=
  forall a x s, rec (TCall false f (Cons a (Cons x Nil))) s = (Ok (g a x), s).

Theorem map_l_map f g : pure1 f g -> forall l s, map_l rec f l s = (Ok (map g l), s).
Proof.
  intros Hf. induction l as [|x l IH]; intros s; [reflexivity|].
  simpl. unfold bind, call. rewrite Hf, IH. reflexivity.
Qed.

Theorem filter_l_filter f g : pure1 f g -> forall l s,
  filter_l rec f l s = (Ok (filter (fun x => truthy (g x)) l), s).
Proof.
  intros Hf. induction l as [|x l IH]; intros s; [reflexivity|].
  simpl. unfold bind, call. rewrite Hf, IH. destruct (truthy (g x)); reflexivity.
Qed.

Theorem reduce_l_fold f g : pure2 f g -> forall l acc s,
  reduce_l rec f l acc s = (Ok (fold_left g l acc), s).
Proof.
  intros Hf. induction l as [|x l IH]; intros acc s; [reflexivity|].
  simpl. unfold bind, call. rewrite Hf, IH. reflexivity.
Qed.

Theorem find_l_find f g : pure1 f g -> forall l s,
  find_l rec f l s = (Ok (List.find (fun x => truthy (g x)) l), s).
Proof.
  intros Hf. induction l as [|x l IH]; intros s; [reflexivity|].
  simpl. unfold bind, call. rewrite Hf. destruct (truthy (g x)); [reflexivity|apply IH].
Qed.

(* with an effectful callee the calls happen in the order of the list *)
Theorem map_l_order f x l :
  map_l rec f (x :: l) =
  bind (call rec false f (Cons x Nil)) (fun v => bind (map_l rec f l) (fun vs => ret (v :: vs))).
Proof. reflexivity. Qed.
End HigherOrder.

Definition is_pair_with (p : sx -> bool) (e : sx) : bool :=
  match e with Cons k _ => p k | _ => false end.

Theorem assoc_first_match p : forall es s,
  assoc_find (fun k => ret (p k)) (of_list es Nil) s =
  (Ok (match List.find (is_pair_with p) es with Some e => e | None => Nil end), s).
Proof.
  induction es as [|e es IH]; intros s; [reflexivity|].
  simpl. destruct e; simpl; try apply IH.
  unfold bind, ret. destruct (p e1); [reflexivity|apply IH].
Qed.

Theorem plist_get_first : forall k v rest, plist_get (Cons k (Cons v rest)) k =
  match eq_model k k with Some true => Ok v | Some false => plist_get rest k | None => Err ENotImpl end.
Proof. intros. simpl. destruct (eq_model k k) as [[|]|]; reflexivity. Qed.

(* alist-get, as the built-in computes it (no test function): the value of the   *)
(* first pair whose key is equal to the key, also when that value is nil; the   *)
(* default only when there is no such pair                                      *)
Definition alist_get_spec (F : fops) (key : sx) (es : list sx) (dflt : sx) : sx :=
  match List.find (is_pair_with (fun k => equal F k key)) es with
  | Some (Cons _ v) => v
  | _ => dflt
  end.

Theorem alist_get_first_match F rec key es dflt s :
  bind (assoc F rec key (of_list es Nil) None)
       (fun x => if truthy x then lift (cdr_of x) else ret dflt) s
  = (Ok (alist_get_spec F key es dflt), s).
Proof.
  unfold assoc, bind. assert (Hl : listp (of_list es Nil) = true) by (destruct es; reflexivity).
  rewrite Hl. cbn [negb].
  rewrite (assoc_first_match (fun k => equal F k key) es s). unfold alist_get_spec.
  destruct (List.find (is_pair_with (fun k => equal F k key)) es) as [e|] eqn:Ef; [|reflexivity].
  apply find_some in Ef as [_ Hp]. destruct e; try discriminate Hp. reflexivity.
Qed.

Definition keq (prop k : sx) : bool := match eq_model k prop with Some b => b | None => false end.

(* plist-get: the value after the first key at an even position that is eq to *)
(* the property; nil when there is none or when the list ends after that key   *)
Fixpoint plist_spec (prop : sx) (fuel : nat) (l : list sx) : sx :=
  match fuel with
  | O => Nil
  | S f => match l with
           | k :: v :: r => if keq prop k then v else plist_spec prop f r
           | _ => Nil
           end
  end.

Fixpoint even_keys (P : sx -> Prop) (fuel : nat) (l : list sx) : Prop :=
  match fuel with
  | O => True
  | S f => match l with
           | k :: r => P k /\ match r with _ :: r' => even_keys P f r' | [] => True end
           | [] => True
           end
  end.

Theorem plist_get_spec prop : forall fuel l, (List.length l <= fuel)%nat ->
  even_keys (fun k => eq_model k prop <> None) fuel l ->
  plist_get (of_list l Nil) prop = Ok (plist_spec prop fuel l).
Proof.
  induction fuel as [|fuel IH]; intros l Hl Hk.
  - destruct l; [reflexivity|simpl in Hl; lia].
  - destruct l as [|k [|v r]]; [reflexivity| |]; destruct Hk as [Hk Hr];
      cbn [of_list plist_get plist_spec]; unfold keq;
      destruct (eq_model k prop) as [[|]|]; try congruence.
    apply IH; [simpl in Hl; lia|exact Hr].
Qed.
