(* C11 / C20: the object heap of Model/Api.v: which cells the list operations  *)
(* write, and the symbol API as a stack.  Each list operation is read off the  *)
(* model once, as an equation between heaps (push_spec, append_spec,            *)
(* deep_copy_spec); Build.v and Seq.v start from those equations too.           *)
From TL Require Import Base.Base Model.Reader Model.Printer Model.Api.
Local Open Scope positive_scope.
Local Open Scope list_scope.

Lemma find_add (m : PositiveMap.t hval) i v c :
  match PositiveMap.find c (PositiveMap.add i v m) with Some x => x | None => HNil end =
  if Pos.eqb c i then v else match PositiveMap.find c m with Some x => x | None => HNil end.
Proof.
  destruct (Pos.eqb_spec c i) as [->|N].
  - rewrite PositiveMap.gss. reflexivity.
  - rewrite PositiveMap.gso by exact N. reflexivity.
Qed.

Lemma hget_hset h i v c : hget (hset h i v) c = if Pos.eqb c i then v else hget h c.
Proof. apply find_add. Qed.
Lemma hget_hset_same h i v : hget (hset h i v) i = v.
Proof. rewrite hget_hset, Pos.eqb_refl. reflexivity. Qed.
Lemma hget_hset_other h i v c : c <> i -> hget (hset h i v) c = hget h c.
Proof. intros N. rewrite hget_hset. apply Pos.eqb_neq in N. rewrite N. reflexivity. Qed.

(* the normal form of an allocation: the new heap is written [fst (halloc h v)] *)
Lemma halloc_eq h v : halloc h v = (fst (halloc h v), hnext h).
Proof. reflexivity. Qed.
Lemma hget_halloc h v c :
  hget (fst (halloc h v)) c = if Pos.eqb c (hnext h) then v else hget h c.
Proof. apply find_add. Qed.
Lemma hget_halloc_new h v : hget (fst (halloc h v)) (hnext h) = v.
Proof. rewrite hget_halloc, Pos.eqb_refl. reflexivity. Qed.

Lemma hnext_halloc h v : hnext (fst (halloc h v)) = Pos.succ (hnext h).
Proof. reflexivity. Qed.
Lemma hnext_hset h i v : hnext (hset h i v) = hnext h.
Proof. reflexivity. Qed.

Definition same_below (n : positive) (h h' : heap) : Prop :=
  forall c, c < n -> hget h' c = hget h c.

Lemma same_below_refl n h : same_below n h h.
Proof. intros c _. reflexivity. Qed.
Lemma same_below_trans n h1 h2 h3 :
  same_below n h1 h2 -> same_below n h2 h3 -> same_below n h1 h3.
Proof. intros H1 H2 c Hc. rewrite H2, H1 by assumption. reflexivity. Qed.

Lemma halloc_fresh n h v : n <= hnext h -> same_below n h (fst (halloc h v)).
Proof.
  intros Hn c Hc. rewrite hget_halloc.
  destruct (Pos.eqb_spec c (hnext h)); [lia|reflexivity].
Qed.

(* [extends h h']: h' is h with cells allocated and none written (what deep_copy     *)
(* does).  The last clause lets well-formedness (Build.wfh: no entry at or beyond    *)
(* hnext) survive an extension (Build.wfh_extends); it speaks of the raw map because *)
(* hget cannot tell a missing entry from HNil.                                       *)
Record extends (h h' : heap) : Prop := {
  ext_below : same_below (hnext h) h h';
  ext_next : hnext h <= hnext h';
  ext_beyond : forall c, hnext h' <= c ->
               PositiveMap.find c (cells h') = PositiveMap.find c (cells h) }.

Lemma extends_refl h : extends h h.
Proof. split; [apply same_below_refl|lia|reflexivity]. Qed.
Lemma extends_trans h1 h2 h3 : extends h1 h2 -> extends h2 h3 -> extends h1 h3.
Proof.
  intros [S1 N1 A1] [S2 N2 A2]. split; [|lia|].
  - intros c Hc. rewrite S2, S1 by lia. reflexivity.
  - intros c Hc. rewrite A2, A1 by lia. reflexivity.
Qed.
Lemma extends_alloc h v : extends h (fst (halloc h v)).
Proof.
  split; [apply halloc_fresh; lia|rewrite hnext_halloc; lia|].
  rewrite hnext_halloc. intros c Hc. apply PositiveMap.gso. lia.
Qed.
(* injection and cbn then keep the normal form of halloc_eq *)
Local Opaque halloc.

Definition written_one (n w : positive) (h h' : heap) : Prop :=
  forall c, c < n -> c <> w -> hget h' c = hget h c.

Lemma extends_set h h1 w v : extends h h1 -> written_one (hnext h) w h (hset h1 w v).
Proof. intros X c Hc Hw. rewrite hget_hset_other by exact Hw. apply (ext_below _ _ X), Hc. Qed.

(* t is on the cdr chain from i, not necessarily its end *)
Inductive cdrs (h : heap) : positive -> positive -> Prop :=
| cdrs_here i : cdrs h i i
| cdrs_next i a d t : hget h i = HCons a d -> cdrs h d t -> cdrs h i t.

Lemma walk_last_spec : forall f h d prev last lbo, walk_last f h d prev = Ok (last, lbo) ->
  cdrs h d last /\
  (d = last /\ lbo = prev \/ exists w x, lbo = Some w /\ cdrs h d w /\ hget h w = HCons x last).
Proof.
  induction f as [|f IH]; intros h d prev last lbo H; [discriminate|].
  cbn [walk_last] in H. destruct (hget h d) as [| | | | | |x d'] eqn:E.
  all: try (injection H as <- <-; split; [apply cdrs_here|left; split; reflexivity]).
  destruct (IH _ _ _ _ _ H) as [P Hw]. split; [eapply cdrs_next; eassumption|]. right.
  destruct Hw as [[<- ->]|(w & y & -> & Pw & Ew)].
  - exists d, x. split; [reflexivity|]. split; [apply cdrs_here|exact E].
  - exists w, y. split; [reflexivity|]. split; [eapply cdrs_next; eassumption|exact Ew].
Qed.

Lemma h_null_spec h i : if h_null h i then hget h i = HNil else hget h i <> HNil.
Proof. unfold h_null. destruct (hget h i); congruence. Qed.

Lemma push_spec h a v h' : h_push h a v = Ok h' ->
  exists last, cdrs h a last /\ hget h last = HNil /\
               h' = hset (fst (halloc h HNil)) last (HCons v (hnext h)).
Proof.
  unfold h_push. rewrite halloc_eq. intros H.
  destruct (hget h a) as [| | | | | |x d] eqn:Ea; try discriminate.
  - injection H as <-. exists a. split; [apply cdrs_here|]. split; [exact Ea|reflexivity].
  - destruct (walk_last (hsize h) h d None) as [[last lbo]|e|k|] eqn:Ew; try discriminate.
    pose proof (h_null_spec h last) as El. destruct (h_null h last); [|discriminate].
    injection H as <-. exists last.
    split; [eapply cdrs_next; [exact Ea|apply (walk_last_spec _ _ _ _ _ _ Ew)]|].
    split; [exact El|reflexivity].
Qed.

(* h_append by case.  In appends_link (the last cons cell w of the destination is   *)
(* linked to the copy) the model reads w's car after the copy was made: it is the old *)
(* car x whenever the copy left w alone, as it does on every well-formed heap.        *)
Inductive appends (h : heap) (a v : positive) : heap -> Prop :=
| appends_none : hget h a = HNil -> hget h v = HNil -> appends h a v h
| appends_fill h1 c x y : hget h a = HNil -> hget h v <> HNil ->
    h_deep_copy h v = Ok (h1, c) -> hget h1 c = HCons x y ->
    appends h a v (hset h1 a (HCons x y))
| appends_fill_atom h1 c : hget h a = HNil -> hget h v <> HNil ->
    h_deep_copy h v = Ok (h1, c) -> (forall x y, hget h1 c <> HCons x y) ->
    appends h a v (hset (fst (halloc h1 HNil)) a (HCons c (hnext h1)))
| appends_link h1 c w x last x' : cdrs h a w -> hget h w = HCons x last -> hget h last = HNil ->
    h_deep_copy h v = Ok (h1, c) -> (hget h1 w = hget h w -> x' = x) ->
    appends h a v (hset h1 w (HCons x' c)).

Lemma append_spec h a v h' : h_append h a v = Ok h' -> appends h a v h'.
Proof.
  unfold h_append. intros H.
  destruct (hget h a) as [| | | | | |x d] eqn:Ea; try discriminate.
  - pose proof (h_null_spec h v) as Ev.
    destruct (h_null h v); [injection H as <-; apply appends_none; assumption|].
    destruct (h_deep_copy h v) as [[h1 c]|e|k|] eqn:Ec; try discriminate.
    destruct (hget h1 c) eqn:E0; try rewrite halloc_eq in H; injection H as <-.
    7: eapply appends_fill; eassumption. (* HCons *)
    all: eapply appends_fill_atom; try eassumption; congruence.
  - destruct (walk_last (hsize h) h d None) as [[last lbo]|e|k|] eqn:Ew; try discriminate.
    pose proof (h_null_spec h last) as El. destruct (h_null h last); [|discriminate].
    destruct (h_deep_copy h v) as [[h1 c]|e|k|] eqn:Ec; try discriminate.
    destruct (walk_last_spec _ _ _ _ _ _ Ew) as [_ [[-> ->]|(w & y & -> & Pw & Ew')]].
    + injection H as <-. eapply appends_link; try eassumption; [apply cdrs_here|reflexivity].
    + destruct (hget h1 w) eqn:E1; try discriminate. injection H as <-.
      eapply appends_link; try eassumption; [eapply cdrs_next; eassumption|congruence].
Qed.

(* what copy_spine does with an element a of the spine *)
Definition copy_head (h : heap) (a : positive) : heap * positive :=
  match hget h a with HCons x y => halloc h (HCons x y) | _ => (h, a) end.

(* [copied h i h' r]: r in h' is the copy of i in h.  The tail of a spine is copied like *)
(* the object handed to deep_copy, so one relation serves copy_spine and h_deep_copy.    *)
Inductive copied : heap -> positive -> heap -> positive -> Prop :=
| copied_sym h i n : hget h i = HSym n -> copied h i h i
| copied_atom h i v : hget h i = v -> match v with HSym _ | HCons _ _ => False | _ => True end ->
    copied h i (fst (halloc h v)) (hnext h)
| copied_cons h i a d h1 a' h2 t : hget h i = HCons a d -> copy_head h a = (h1, a') ->
    copied h1 d h2 t -> copied h i (fst (halloc h2 (HCons a' t))) (hnext h2).

(* the loop itself shares an object that is no cons; deep_copy never hands it one *)
Lemma copy_spine_spec : forall f h i h' r, copy_spine f h i = Ok (h', r) ->
  match hget h i with HCons _ _ => copied h i h' r | _ => (h', r) = (h, i) end.
Proof.
  induction f as [|f IH]; intros h i h' r H; [discriminate|].
  cbn [copy_spine] in H. destruct (hget h i) as [| | | | | |a d] eqn:Ei; try congruence.
  fold (copy_head h a) in H. destruct (copy_head h a) as [h1 a'] eqn:Eh.
  assert (T : exists h2 t, copied h1 d h2 t /\ Ok (halloc h2 (HCons a' t)) = Ok (h', r)).
  { destruct (hget h1 d) eqn:Ed.
    (* 7: HCons, the loop goes on; 1-5: the atoms that go to a new cell; 6: HSym *)
    7: destruct (copy_spine f h1 d) as [[h2 t]|e|k|] eqn:Ec; try discriminate.
    7: apply IH in Ec; rewrite Ed in Ec.
    1-5: rewrite halloc_eq in H.
    all: do 2 eexists; split; [|exact H].
    all: try (apply copied_atom; [exact Ed|exact I]).
    - eapply copied_sym, Ed.
    - exact Ec. }
  destruct T as (h2 & t & C & Hr). rewrite halloc_eq in Hr. injection Hr as <- <-.
  eapply copied_cons; eassumption.
Qed.

Lemma deep_copy_spec h i h' r : h_deep_copy h i = Ok (h', r) -> copied h i h' r.
Proof.
  unfold h_deep_copy. intros H. destruct (hget h i) eqn:Ei.
  all: try (rewrite halloc_eq in H; injection H as <- <-; apply copied_atom; [exact Ei|exact I]).
  - injection H as <- <-. eapply copied_sym, Ei.
  - apply copy_spine_spec in H. rewrite Ei in H. exact H.
Qed.

Lemma copy_head_extends h a h1 a' : copy_head h a = (h1, a') -> extends h h1.
Proof.
  unfold copy_head. intros H. destruct (hget h a); try rewrite halloc_eq in H.
  all: injection H as <- _; try apply extends_refl. apply extends_alloc.
Qed.

Lemma copied_extends h i h' r : copied h i h' r -> extends h h'.
Proof.
  induction 1 as [h i n _|h i v _ _|h i a d h1 a' h2 t _ Eh _ IH].
  - apply extends_refl.
  - apply extends_alloc.
  - apply (extends_trans _ _ _ (copy_head_extends _ _ _ _ Eh)).
    apply (extends_trans _ _ _ IH), extends_alloc.
Qed.

Theorem deep_copy_fresh h i h' r : h_deep_copy h i = Ok (h', r) -> extends h h'.
Proof. intros H. apply (copied_extends h i h' r), deep_copy_spec, H. Qed.

Theorem push_writes_end_cell h a v h' :
  h_push h a v = Ok h' ->
  exists w, h_null h w = true /\ written_one (hnext h) w h h'.
Proof.
  intros H. destruct (push_spec _ _ _ _ H) as (last & _ & El & ->). exists last.
  split; [unfold h_null; rewrite El; reflexivity|apply extends_set, extends_alloc].
Qed.

Theorem append_writes_one_cell h a v h' :
  h_append h a v = Ok h' -> exists w, written_one (hnext h) w h h'.
Proof.
  intros H.
  destruct (append_spec _ _ _ _ H) as [_ _|h1 c x y _ _ Ec _|h1 c _ _ Ec _|h1 c w x last x' _ _ _ Ec _].
  - exists a. intros c _ _. reflexivity.
  - exists a. apply extends_set, (deep_copy_fresh _ _ _ _ Ec).
  - exists a. apply extends_set. eapply extends_trans; [apply (deep_copy_fresh _ _ _ _ Ec)|apply extends_alloc].
  - exists w. apply extends_set, (deep_copy_fresh _ _ _ _ Ec).
Qed.

(* every cell within depth fuel of i is below n and is not w (fuel 0: i alone) *)
Fixpoint avoids (fuel : nat) (h : heap) (n w i : positive) : bool :=
  Pos.ltb i n && negb (Pos.eqb i w) &&
  match fuel with
  | O => true
  | S f => match hget h i with
           | HCons a d => avoids f h n w a && avoids f h n w d
           | _ => true
           end
  end.

Theorem abs_unchanged : forall fuel h h' n w i,
  written_one n w h h' -> avoids fuel h n w i = true -> abs fuel h' i = abs fuel h i.
Proof.
  induction fuel as [|fuel IH]; intros h h' n w i Hw Ha; [reflexivity|].
  cbn [avoids] in Ha. apply andb_true_iff in Ha as [Ha Hr]. apply andb_true_iff in Ha as [H1 H2].
  apply Pos.ltb_lt in H1. apply negb_true_iff in H2. apply Pos.eqb_neq in H2.
  cbn [abs]. rewrite (Hw i H1 H2). destruct (hget h i); try reflexivity.
  apply andb_true_iff in Hr as [Hr1 Hr2].
  rewrite (IH h h' n w car Hw Hr1), (IH h h' n w cdr Hw Hr2). reflexivity.
Qed.

(* the argument of append reads the same afterwards, unless it shares the written cell *)
Corollary append_argument_unchanged fuel h a v h' :
  h_append h a v = Ok h' ->
  exists w, forall x, avoids fuel h (hnext h) w x = true -> abs fuel h' x = abs fuel h x.
Proof.
  intros H. destruct (append_writes_one_cell _ _ _ _ H) as [w Hw]. exists w.
  intros x Hx. eapply abs_unchanged; eassumption.
Qed.

(* [avoids] without w *)
Fixpoint below (fuel : nat) (h : heap) (n i : positive) : bool :=
  Pos.ltb i n &&
  match fuel with
  | O => true
  | S f => match hget h i with
           | HCons a d => below f h n a && below f h n d
           | _ => true
           end
  end.

Theorem abs_same_below : forall fuel h h' n i,
  same_below n h h' -> below fuel h n i = true -> abs fuel h' i = abs fuel h i.
Proof.
  induction fuel as [|fuel IH]; intros h h' n i Hs Hb; [reflexivity|].
  cbn [below] in Hb. apply andb_true_iff in Hb as [H1 Hr]. apply Pos.ltb_lt in H1.
  cbn [abs]. rewrite (Hs i H1). destruct (hget h i); try reflexivity.
  apply andb_true_iff in Hr as [Hr1 Hr2].
  rewrite (IH h h' n car Hs Hr1), (IH h h' n cdr Hs Hr2). reflexivity.
Qed.

Lemma get_put_same w i b : get_bind (put_bind w i b) i = b.
Proof. unfold get_bind, put_bind; simpl. rewrite PositiveMap.gss. reflexivity. Qed.
Lemma get_put_other w i j b : i <> j -> get_bind (put_bind w i b) j = get_bind w j.
Proof. intros H. unfold get_bind, put_bind; simpl. rewrite PositiveMap.gso; auto. Qed.

Lemma reg_set_reg w d i h : reg (set_reg w d i h) d = i.
Proof. unfold reg, set_reg; cbn. rewrite PositiveMap.gss. reflexivity. Qed.

(* the operations on one symbol, and what a stack does with them *)
Inductive sop := SSet (v : positive) | SScope (v : positive) | SUnset | SGet | SBoundp.
Inductive sres := SOk | SFail | SVal (v : positive) | SBool (b : bool).

Definition stack_step (st : list positive) (o : sop) : list positive * sres :=
  match o with
  | SSet v => (match st with [] => [v] | _ :: r => v :: r end, SOk)
  | SScope v => (v :: st, SOk)
  | SUnset => match st with [] => (st, SFail) | _ :: r => (r, SOk) end
  | SGet => match st with [] => (st, SFail) | v :: _ => (st, SVal v) end
  | SBoundp => (st, SBool (negb (Nat.eqb (List.length st) 0)))
  end.

(* the API operation for [o] on the symbol in register s, result in register d; here *)
(* the values in [o] name registers, and [w] is not used                              *)
Definition op_of (s d : positive) (w : world) (o : sop) : op :=
  match o with
  | SSet v => OSet s v | SScope v => OSetScope s v | SUnset => OUnset s
  | SGet => OGet s d | SBoundp => OBoundp s
  end.

Definition stack_of (w : world) (i : positive) : list positive := sb_items (get_bind w i).

Lemma put_bind_stack w i b :
  stack_of (put_bind w i b) i = sb_items b /\
  (forall j, j <> i -> stack_of (put_bind w i b) j = stack_of w j) /\ hp (put_bind w i b) = hp w.
Proof.
  unfold stack_of. rewrite get_put_same. split; [reflexivity|]. split; [|reflexivity].
  intros j Hj. rewrite get_put_other by congruence. reflexivity.
Qed.

(* [o] with each register replaced by the object it holds, as stack_step takes it *)
Definition lift_v (w : world) (o : sop) : sop :=
  match o with SSet v => SSet (reg w v) | SScope v => SScope (reg w v) | x => x end.

Theorem symbol_op_is_stack_op w s d o :
  let i := reg w s in
  is_sym (hp w) i = true -> is_const_sym (hp w) i = false ->
  let w' := fst (step_op w (op_of s d w o)) in
  stack_of w' i = fst (stack_step (stack_of w i) (lift_v w o)) /\
  (forall j, j <> i -> stack_of w' j = stack_of w j) /\
  hp w' = hp w /\
  match snd (stack_step (stack_of w i) (lift_v w o)), snd (step_op w (op_of s d w o)) with
  | SOk, RUnit | SFail, RErr => True
  | SVal v, RUnit => reg w' d = v
  | SBool b, RBool b' => b = b'
  | _, _ => False
  end.
Proof.
  intros i Hs Hc. remember (step_op w (op_of s d w o)) as r eqn:E.
  destruct o; cbn [op_of step_op] in E; fold i in E; rewrite ?Hs, ?Hc in E; cbn [negb orb andb] in E.
  all: cbn [lift_v stack_step].
  - subst r. cbn [fst snd]. edestruct put_bind_stack as (-> & O & ->). split; [|auto].
    unfold stack_of. destruct (sb_items (get_bind w i)); reflexivity.
  - subst r. cbn [fst snd]. edestruct put_bind_stack as (-> & O & ->). auto.
  - fold (stack_of w i) in E. destruct (stack_of w i) eqn:Es; subst r; cbn [fst snd]; [auto|].
    edestruct put_bind_stack as (-> & O & ->). auto.
  - fold (stack_of w i) in E. destruct (stack_of w i) eqn:Es; subst r; cbn [fst snd]; [auto|].
    split; [exact Es|]. split; [reflexivity|]. split; [reflexivity|apply reg_set_reg].
  - subst r. cbn [fst snd]. auto.
Qed.

Theorem constant_symbol_rejects w s a :
  is_const_sym (hp w) (reg w s) = true ->
  step_op w (OSet s a) = (w, RErr) /\ step_op w (OSetScope s a) = (w, RErr).
Proof. intros H. cbn [step_op]. rewrite H, !orb_true_r. split; reflexivity. Qed.

(* after an operation that makes an object with value v in register d *)
Lemma made_reads w v d :
  let w' := set_reg w d (hnext (hp w)) (fst (halloc (hp w) v)) in hget (hp w') (reg w' d) = v.
Proof. cbn. rewrite reg_set_reg. apply hget_halloc_new. Qed.

Theorem int_roundtrip w z d : snd (step_op (fst (step_op w (OInt z d))) (OToInt d)) = RInt z.
Proof. cbn [step_op]. rewrite halloc_eq. cbn [fst]. rewrite made_reads. reflexivity. Qed.

Theorem str_roundtrip w s d : snd (step_op (fst (step_op w (OStr s d))) (OToStr d)) = RStr s.
Proof. cbn [step_op]. rewrite halloc_eq. cbn [fst]. rewrite made_reads. reflexivity. Qed.

Theorem wrong_type_rejected w s d :
  snd (step_op (fst (step_op w (OStr s d))) (OToInt d)) = RErr /\
  snd (step_op (fst (step_op w (OStr s d))) (OToFlt d)) = RErr.
Proof. cbn [step_op]. rewrite halloc_eq. cbn [fst]. rewrite made_reads. split; reflexivity. Qed.
