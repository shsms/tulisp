(* C03 - Temporary bindings are undone on every exit, including errors.   *)
(* Statements only; the proofs are in Proofs/EvalRel.v and Proofs/Frame.v   *)
(* (on top of the hidden-entry simulation of Proofs/Hidden.v).              *)
From TL Require Import Base.Base Model.Reader Model.Printer Model.Store Model.Eval Model.Init.
From TL Require Import Proofs.EvalRel Proofs.Hidden Proofs.Tramp Proofs.Frame.
Local Open Scope nat_scope.
Local Open Scope list_scope.

(* [depth s k] is the number of entries on the binding stack of symbol k,  *)
(* [mc s k] the number of defmacro forms executed so far on k (a ghost     *)
(* counter of the model; a defmacro pushes one permanent entry, that is    *)
(* what set_scope in src/builtin/functions/functions.rs defmacro does).    *)

(* For every text, every state (hence every value of the fault counter     *)
(* fail_at), every amount of fuel and EVERY outcome - a value, any error,  *)
(* raised at any point - an evaluation request leaves every binding stack  *)
(* with the depth it had, up to: the entries of executed defmacros, and    *)
(* the creation of a global entry by an assignment to an unbound symbol.   *)
Theorem C03_request_balanced :
  forall (F : fops) (fuel : nat) (t : text) (s s' : st) (r : res sx),
    eval_string F fuel t s = (r, s') -> r <> Fuel ->
    forall k, depth s k <= depth s' k /\
              depth s' k + mc s k <= Nat.max (depth s k) 1 + mc s' k /\
              mc s k <= mc s' k.
Proof.
  intros F fuel t s s' r H Hr k. destruct (eval_string_inv F fuel t s r s' H Hr) as [I _].
  pose proof (I k) as X. simpl in X. lia.
Qed.
Print Assumptions C03_request_balanced.

(* In particular: a symbol on which the request executed no defmacro and   *)
(* which had a binding keeps exactly its depth, whatever the outcome: no   *)
(* temporary binding of let, let*, a call, dolist or dotimes survives.     *)
Theorem C03_no_stale_binding :
  forall (F : fops) (fuel : nat) (t : text) (s s' : st) (r : res sx) (k : key),
    eval_string F fuel t s = (r, s') -> r <> Fuel ->
    mc s' k = mc s k ->
    (1 <= depth s k -> depth s' k = depth s k) /\
    (depth s k = 0 -> depth s' k <= 1).
Proof.
  intros F fuel t s s' r k H Hr Hm.
  destruct (C03_request_balanced F fuel t s s' r H Hr k) as (A & B & C). lia.
Qed.
Print Assumptions C03_no_stale_binding.

(* The same for every construct separately: every task of the interpreter  *)
(* (evaluation of a form, a call, a loop, a trampoline iteration, a macro  *)
(* expansion) is balanced, for every outcome.                              *)
Theorem C03_every_form_balanced :
  forall (F : fops) (fuel : nat) (x : sx) (s s' : st) (r : res sx),
    run F fuel (TEval x) s = (r, s') -> r <> Fuel -> Inv s s'.
Proof. intros F fuel x s s' r H Hr. apply (run_inv F fuel (TEval x) s r s' H Hr I). Qed.
Print Assumptions C03_every_form_balanced.

Theorem C03_file_balanced :
  forall (F : fops) (fuel : nat) (n : text) (s s' : st) (r : res sx),
    eval_file F fuel n s = (r, s') -> r <> Fuel -> Inv s s'.
Proof. intros F fuel n s s' r H Hr. apply (eval_file_inv F fuel n s r s' H Hr). Qed.
Print Assumptions C03_file_balanced.

(* VALUES.  The entries of a binding stack strictly between the innermost and  *)
(* the outermost one - the bindings that are shadowed - are out of reach of     *)
(* every evaluation: whatever task is run, with whatever outcome, they are     *)
(* still there afterwards, unchanged and in the same order, directly above the  *)
(* outermost entry (which only defun / set_global can write).                   *)
Theorem C03_shadowed_bindings_untouched :
  forall F f t s k top M b r s',
    bitems (sget s k) = top :: M ++ [b] ->
    run F f t s = (r, s') -> r <> Fuel ->
    exists X b', X <> [] /\ bitems (sget s' k) = X ++ M ++ [b'].
Proof. exact frame_interior. Qed.
Print Assumptions C03_shadowed_bindings_untouched.

(* A call is: parse the parameter list, pair it with the arguments, then the   *)
(* bracket [bind the parameters; run the body; unbind whatever the outcome].    *)
Theorem C03_call_is_bracket : forall rec e ps body args,
  eval_function rec e ps body args =
  bind (lift (parse_params ps)) (fun pl =>
  bind (zip_args rec e pl (items args)) (fun '(vs, rest) =>
    match rest with
    | _ :: _ => fail EType
    | [] => bracket rec (map p_sym pl) vs body
    end)).
Proof. reflexivity. Qed.

(* The bracket gives back what it shadowed: for every outcome of the body, a   *)
(* parameter symbol that had bindings before the call has exactly those entries *)
(* afterwards, value by value - only the outermost one may have been written    *)
(* (by a defun of that symbol inside the body).  A defmacro of the parameter     *)
(* symbol inside the body leaves a permanent entry and is excluded.              *)
Theorem C03_call_gives_back_bindings :
  forall F f syms vs body s r s',
    Forall bindable syms -> List.length vs = List.length syms ->
    bracket (run F f) syms vs body s = (r, s') -> r <> Fuel ->
    forall k, In k (keys syms) -> 1 <= depth s k -> mc s' k = mc s k ->
    exists b', bitems (sget s' k) = removelast (bitems (sget s k)) ++ [b'].
Proof. exact call_restores. Qed.
Print Assumptions C03_call_is_bracket. Print Assumptions C03_call_gives_back_bindings.

(* the statements are not vacuous: an error that crosses a function call,  *)
(* a let and a dolist, on the initial context                               *)
Definition F0 : fops :=
  {| f_add := fun _ _ => 0%Z; f_sub := fun _ _ => 0%Z; f_mul := fun _ _ => 0%Z;
     f_div := fun _ _ => 0%Z; f_rem := fun _ _ => 0%Z; f_pow := fun _ _ => 0%Z;
     f_max := fun _ _ => 0%Z; f_min := fun _ _ => 0%Z; f_of_int := fun z => z;
     f_to_int := fun z => z; f_round := fun z => z; f_trunc := fun z => z;
     f_lt := Z.ltb; f_le := Z.leb; f_eq := Z.eqb; f_is_finite := fun _ => true;
     f_to_dec := fun _ => []; f_of_dec := fun _ => None |}.

Definition prog1 := s2t "(defun f (a) (let ((b 1)) (dolist (c '(1 2)) (nofn))))".
Definition prog2 := s2t "(setq a 7) (f 1)".
Example C03_error_crosses_binders :
  let s0 := init_state [] None in
  let '(_, s1) := eval_string F0 50 prog1 s0 in
  let '(r, s2) := eval_string F0 50 prog2 s1 in
  r = Err EType /\
  var_items s2 (s2t "a") = [Int 7] /\ var_items s2 (s2t "b") = [] /\ var_items s2 (s2t "c") = [].
Proof. vm_compute. repeat split. Qed.

(* non-vacuity of the value theorems: a variable with three entries; a request *)
(* that assigns, shadows, assigns again and fails leaves the two lower entries    *)
Definition kx : key := key_of_name (s2t "x").
Definition s3 : st :=
  let s0 := init_state [] None in
  sput s0 kx {| has_global := true; bitems := [Int 1; Int 2; Int 3] |}.
Example C03_shadowed_example :
  bitems (sget s3 kx) = Int 1 :: [Int 2] ++ [Int 3] /\
  let '(r, s') := eval_string F0 60 (s2t "(setq x 10) (let ((x 4)) (setq x 5) (nofn))") s3 in
  r = Err EType /\ bitems (sget s' kx) = [Int 10] ++ [Int 2] ++ [Int 3].
Proof. vm_compute. repeat split. Qed.

(* A definition writes the outermost slot of the symbol's binding stack and keeps   *)
(* every entry above it; with a global value present that slot is the global value, *)
(* with temporary bindings only it is the outermost temporary binding (D39 below).  *)
Theorem C03_definition_writes_only_the_bottom_slot : forall b v,
  bitems (b_set_global b v) = match bitems b with [] => [v] | l => removelast l ++ [v] end /\
  has_global (b_set_global b v) = true.
Proof. exact set_global_writes_bottom. Qed.
Print Assumptions C03_definition_writes_only_the_bottom_slot.

(* REFUTED (defect D39, known finding): that after a request each variable has the  *)
(* bindings it had, changed only by the definitions the program executed, fails of  *)
(* the faithful model for a definition executed while the symbol has temporary      *)
(* bindings and no global value: set_global writes the bottom slot, which is then   *)
(* the outermost TEMPORARY binding - inside the let the variable reads as the       *)
(* function, and once the let is left the definition is gone.  (The depth is        *)
(* restored, as C03_request_balanced says; the content of the slot is wrong.)       *)
Example C03_executed_definition_persists_refuted :
  let s0 := init_state [] None in
  let '(r1, s1) := eval_string F0 60 (s2t "(let ((zq 17)) (eval (list 'defun 'zq nil 42)) (equal zq 17))") s0 in
  r1 = Ok Nil /\ var_items s1 (s2t "zq") = [] /\
  fst (eval_string F0 60 (s2t "(zq)") s1) = Err EType.
Proof. vm_compute. repeat split. Qed.

Check C03_request_balanced :
  forall (F : fops) (fuel : nat) (t : text) (s s' : st) (r : res sx),
    eval_string F fuel t s = (r, s') -> r <> Fuel ->
    forall k, depth s k <= depth s' k /\
              depth s' k + mc s k <= Nat.max (depth s k) 1 + mc s' k /\
              mc s k <= mc s' k.
Check C03_shadowed_bindings_untouched :
  forall F f t s k top M b r s',
    bitems (sget s k) = top :: M ++ [b] ->
    run F f t s = (r, s') -> r <> Fuel ->
    exists X b', X <> [] /\ bitems (sget s' k) = X ++ M ++ [b'].
