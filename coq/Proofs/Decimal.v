(* Decimal printing of integers (Model/Printer.v) is inverted by the        *)
(* reader's digit conversion (Model/Reader.v): used by C09 and C15.          *)
From TL Require Import Base.Base Model.Reader Model.Printer.
Local Open Scope N_scope.
Local Open Scope list_scope.

Lemma digits_val_app : forall x y a, digits_val (x ++ y) a = digits_val y (digits_val x a).
Proof. induction x as [|c x IH]; intros y a; [reflexivity|apply IH]. Qed.

Definition all_digits (l : text) : Prop := Forall (fun c => is_digit c = true) l.

Lemma digit_char n : is_digit (c_0 + n mod 10) = true.
Proof.
  assert (Hm : n mod 10 < 10) by (apply N.mod_lt; discriminate).
  set (m := n mod 10) in *. clearbody m.
  unfold is_digit, c_0, c_9. apply andb_true_iff. split; apply N.leb_le; lia.
Qed.

Lemma c0_cancel m : c_0 + m - c_0 = m.
Proof. lia. Qed.

Lemma pos_digits_spec : forall fuel n acc, (0 < fuel)%nat -> n < 10 ^ N.of_nat fuel ->
  exists D, pos_digits fuel n acc = D ++ acc /\ D <> [] /\ all_digits D /\
            digits_val D 0 = Z.of_N n /\
            (n <> 0 -> List.hd c_0 D <> c_0).
Proof.
  induction fuel as [|fuel IH]; intros n acc Hf Hn; [lia|].
  cbn [pos_digits]. rewrite Nat2N.inj_succ, N.pow_succ_r' in Hn.
  pose proof (digit_char n) as Hc.
  pose proof (N.div_mod n 10 ltac:(discriminate)) as Hdm.
  pose proof (N.mod_lt n 10 ltac:(discriminate)) as Hm.
  (* with n = 10 * q + m and m < 10 as the only facts about q and m, every goal *)
  (* below is linear                                                            *)
  set (q := n / 10) in *. set (m := n mod 10) in *. clearbody q m.
  destruct (N.eqb_spec q 0) as [Eq|Eq].
  - exists [c_0 + m]. cbn [digits_val List.hd]. rewrite c0_cancel.
    repeat split; [discriminate|repeat constructor; exact Hc|lia|unfold c_0; lia].
  - destruct (IH q ((c_0 + m) :: acc)) as (D & E & Hne & Hd & Hv & Hh);
      [destruct fuel; [simpl in Hn|]; lia|lia|].
    exists (D ++ [c_0 + m]). rewrite E, <- app_assoc, digits_val_app, Hv.
    cbn [digits_val]. rewrite c0_cancel.
    repeat split; [destruct D; discriminate|apply Forall_app; repeat constructor; assumption|lia|].
    intros _. destruct D; [congruence|apply Hh, Eq].
Qed.

Lemma log2_bound n : n < 10 ^ N.of_nat (S (N.to_nat (N.log2 n))).
Proof.
  destruct (N.eq_dec n 0) as [->|Hn]; [simpl; lia|].
  replace (N.of_nat (S (N.to_nat (N.log2 n)))) with (N.succ (N.log2 n)) by lia.
  eapply N.lt_le_trans; [apply N.log2_spec; lia|]. apply N.pow_le_mono_l. lia.
Qed.

Lemma print_N_spec n :
  print_N n <> [] /\ all_digits (print_N n) /\ digits_val (print_N n) 0 = Z.of_N n /\
  (n <> 0 -> List.hd c_0 (print_N n) <> c_0).
Proof.
  unfold print_N.
  destruct (pos_digits_spec (S (N.to_nat (N.log2 n))) n [] ltac:(lia) (log2_bound n))
    as (D & E & Hne & Hd & Hv & Hh).
  rewrite E, app_nil_r. auto.
Qed.

Lemma minus_not_digit : is_digit c_minus = false. Proof. reflexivity. Qed.

Lemma digit_not_minus c : is_digit c = true -> N.eqb c c_minus = false.
Proof.
  intros H. destruct (N.eqb_spec c c_minus) as [->|]; [|reflexivity].
  rewrite minus_not_digit in H. discriminate H.
Qed.

Lemma print_N_cons n : exists c r, print_N n = c :: r /\ is_digit c = true /\ all_digits r.
Proof.
  destruct (print_N_spec n) as (Hne & Hd & _).
  destruct (print_N n) as [|c r]; [congruence|]. inversion Hd. eauto.
Qed.

Lemma print_N_not_minus n r : print_N n <> c_minus :: r.
Proof.
  intros E. destruct (print_N_cons n) as (c & r' & E' & Hc & _).
  rewrite E' in E. injection E as -> _. discriminate Hc.
Qed.

Theorem print_N_inj a b : print_N a = print_N b -> a = b.
Proof.
  intros H. destruct (print_N_spec a) as (_ & _ & Ha & _).
  destruct (print_N_spec b) as (_ & _ & Hb & _).
  rewrite H in Ha. lia.
Qed.

Lemma print_Z_sign_abs z :
  print_Z z = (if (z <? 0)%Z then [c_minus] else []) ++ print_N (Z.abs_N z).
Proof. destruct z; reflexivity. Qed.

(* str::parse::<i64> of a printed integer gives the integer back, or fails when it is out of range *)
Lemma parse_print_Z_range z : parse_i64 (print_Z z) = if in_i64 z then Some z else None.
Proof.
  rewrite print_Z_sign_abs.
  destruct (print_N_spec (Z.abs_N z)) as (_ & _ & Hv & _).
  destruct (print_N_cons (Z.abs_N z)) as (c & r & E & Hc & _). rewrite E in *.
  destruct (Z.ltb_spec z 0) as [Hs|Hs]; simpl app; unfold parse_i64.
  - rewrite N.eqb_refl, Hv. replace (- Z.of_N (Z.abs_N z))%Z with z by lia. reflexivity.
  - rewrite (digit_not_minus c Hc), Hv. replace (Z.of_N (Z.abs_N z)) with z by lia. reflexivity.
Qed.

Theorem parse_print_Z z : in_i64 z = true -> parse_i64 (print_Z z) = Some z.
Proof. intros Hz. rewrite parse_print_Z_range, Hz. reflexivity. Qed.

Theorem print_Z_inj a b : print_Z a = print_Z b -> a = b.
Proof.
  rewrite !print_Z_sign_abs.
  destruct (Z.ltb_spec a 0) as [Ha|Ha], (Z.ltb_spec b 0) as [Hb|Hb]; simpl app; intros H.
  - injection H as H. apply print_N_inj in H. lia.
  - symmetry in H. destruct (print_N_not_minus _ _ H).
  - destruct (print_N_not_minus _ _ H).
  - apply print_N_inj in H. lia.
Qed.
