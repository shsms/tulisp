(* C17: the merge sort of Model/Eval.v (msort / merge_fuel).                 *)
From TL Require Import Base.Base Model.Reader Model.Printer Model.Store Model.Eval.
From Coq Require Import Permutation Sorted.
Local Open Scope nat_scope.
Local Open Scope list_scope.

Lemma halves_shorter {A} (l : list A) : 2 <= List.length l ->
  List.length (firstn (Nat.div (List.length l) 2) l) < List.length l /\
  List.length (skipn (Nat.div (List.length l) 2) l) < List.length l.
Proof.
  intros H. rewrite firstn_length, skipn_length.
  assert (1 <= Nat.div (List.length l) 2 < List.length l)
    by (split; [apply Nat.div_le_lower_bound|apply Nat.div_lt]; lia).
  lia.
Qed.

Section Sort.
Variable rec : task -> M sx.
Variable pred : sx.

(* the call by which the merge asks whether y, from the right run, goes before x *)
Definition pcall (y x : sx) : M sx := call rec false pred (of_list [y; x] Nil).
End Sort.

(* Every outcome of the sort, for every predicate, however inconsistent: a   *)
(* permutation of the input, or what a call of the predicate gave that was   *)
(* not a value, or the sort's own fuel running out.                          *)
Section Outcome.
Variable rec : task -> M sx.
Variable pred : sx.
(* what is known of every outcome of a call of the predicate *)
Variable Pc : res sx -> Prop.
Hypothesis pred_Pc : forall args s, Pc (fst (rec (TCall false pred args) s)).

Definition outcome {A} (ok : A -> Prop) (starved : Prop) (r : res A) : Prop :=
  match r with
  | Ok a => ok a
  | Err e => Pc (Err e)
  | Panic n => Pc (Panic n)
  | Fuel => Pc Fuel \/ starved
  end.

Lemma outcome_impl {A} (ok ok' : A -> Prop) (p p' : Prop) r :
  (forall a, ok a -> ok' a) -> (p -> p') -> outcome ok p r -> outcome ok' p' r.
Proof. destruct r; simpl; intuition. Qed.

Lemma outcome_bind {A B} (m : M A) (f : A -> M B) ok (p : Prop) (ok' : B -> Prop) (p' : Prop) s :
  outcome ok p (fst (m s)) -> (p -> p') ->
  (forall a s1, ok a -> outcome ok' p' (fst (f a s1))) ->
  outcome ok' p' (fst (bind m f s)).
Proof. unfold bind. destruct (m s) as [[a|e|n|] s1]; simpl; intuition. Qed.

Lemma call_outcome args s : outcome (fun _ => True) False (fst (call rec false pred args s)).
Proof.
  unfold call. pose proof (pred_Pc args s) as H.
  destruct (rec (TCall false pred args) s) as [[v|e|n|] s1]; simpl; auto.
Qed.

Lemma merge_outcome : forall fuel l r acc s,
  outcome (fun out => Permutation out (rev acc ++ l ++ r))
          (fuel <= List.length l + List.length r)
          (fst (merge_fuel rec fuel pred l r acc s)).
Proof.
  induction fuel as [|fuel IH]; intros l r acc s; [right; lia|].
  cbn [merge_fuel]. destruct l as [|x l']; [exact (Permutation_refl _)|].
  destruct r as [|y r']; [simpl; rewrite app_nil_r; reflexivity|].
  eapply outcome_bind; [apply call_outcome|tauto|]. intros v s1 _.
  destruct (truthy v); (eapply outcome_impl; [| |apply IH]); simpl; try lia;
    intros out ->; rewrite <- !app_assoc.
  - apply Permutation_app_head, (Permutation_middle (x :: l')).
  - reflexivity.
Qed.

Lemma msort_outcome : forall fuel l s,
  outcome (fun out => Permutation out l) (fuel <= List.length l)
          (fst (msort rec fuel pred l s)).
Proof.
  induction fuel as [|fuel IH]; intros l s; [right; lia|].
  cbn [msort]. destruct (Nat.ltb_spec (List.length l) 2) as [|H2]; [exact (Permutation_refl _)|].
  destruct (halves_shorter l H2).
  eapply outcome_bind; [apply IH|lia|]. intros sr s1 Or.
  eapply outcome_bind; [apply IH|lia|]. intros sl s2 Ol.
  eapply outcome_impl; [| |apply merge_outcome]; simpl.
  - intros out ->. rewrite Ol, Or. apply Permutation_refl', firstn_skipn.
  - rewrite (Permutation_length Ol), (Permutation_length Or), <- app_length, firstn_skipn. lia.
Qed.

End Outcome.

Lemma msort_perm rec pred : forall fuel l s out s',
  msort rec fuel pred l s = (Ok out, s') -> Permutation out l.
Proof.
  intros fuel l s out s' H.
  pose proof (msort_outcome rec pred (fun _ => True) (fun _ _ => I) fuel l s) as O.
  rewrite H in O. exact O.
Qed.

Section Total.
Variable rec : task -> M sx.
Variable pred : sx.
Hypothesis pred_total : forall args s, fst (rec (TCall false pred args) s) <> Fuel.

Lemma msort_nofuel : forall fuel l s,
  List.length l < fuel -> fst (msort rec fuel pred l s) <> Fuel.
Proof.
  intros fuel l s Hf E.
  pose proof (msort_outcome rec pred (fun r => r <> Fuel) pred_total fuel l s) as O.
  rewrite E in O. destruct O; [congruence|lia].
Qed.

Theorem sort_terminates l s : fst (msort rec (S (List.length l)) pred l s) <> Fuel.
Proof. apply msort_nofuel. lia. Qed.

End Total.

(* a failure of the sort is a failure of a predicate call *)
Section SortFail.
Variable rec : task -> M sx.
Variable pred : sx.
Variable Q : ekind -> Prop.
Hypothesis pred_errs : forall args s e s', rec (TCall false pred args) s = (Err e, s') -> Q e.
Hypothesis pred_np : forall args s n s', rec (TCall false pred args) s <> (Panic n, s').

Lemma msort_fail : forall fuel l s,
  match fst (msort rec fuel pred l s) with
  | Err e => Q e | Panic _ => False | _ => True end.
Proof.
  intros fuel l s.
  set (Pc := fun r : res sx => match r with Err e => Q e | Panic _ => False | _ => True end).
  assert (Hc : forall args s, Pc (fst (rec (TCall false pred args) s))).
  { intros args s0. destruct (rec (TCall false pred args) s0) as [[v|e|n|] s1] eqn:E;
      [exact I|eapply pred_errs, E|eapply pred_np, E|exact I]. }
  pose proof (msort_outcome rec pred Pc Hc fuel l s) as O.
  destruct (fst (msort rec fuel pred l s)); try exact I; exact O.
Qed.
End SortFail.

(* a pure predicate: the sort is a function of the list *)
Section SortPure.
Variable rec : task -> M sx.
Variable pred : sx.
Variable lt : sx -> sx -> bool.
Hypothesis pred_pure : forall y x s,
  rec (TCall false pred (of_list [y; x] Nil)) s = (Ok (of_bool (lt y x)), s).

Fixpoint mrg (l : list sx) : list sx -> list sx :=
  match l with
  | [] => fun r => r
  | x :: l' =>
      fix aux (r : list sx) : list sx :=
        match r with
        | [] => x :: l'
        | y :: r' => if lt y x then y :: aux r' else x :: mrg l' r
        end
  end.

Lemma mrg_nil_r l : mrg l [] = l.
Proof. destruct l; reflexivity. Qed.

Lemma mrg_cons x l y r :
  mrg (x :: l) (y :: r) = if lt y x then y :: mrg (x :: l) r else x :: mrg l (y :: r).
Proof. reflexivity. Qed.

Lemma truthy_of_bool b : truthy (of_bool b) = b.
Proof. destruct b; reflexivity. Qed.

Lemma merge_pure : forall fuel l r acc s,
  List.length l + List.length r < fuel ->
  merge_fuel rec fuel pred l r acc s = (Ok (rev acc ++ mrg l r), s).
Proof.
  induction fuel as [|fuel IH]; intros l r acc s Hf; [lia|].
  cbn [merge_fuel]. destruct l as [|x l']; [reflexivity|].
  destruct r as [|y r']; [reflexivity|].
  unfold bind, call. rewrite pred_pure, truthy_of_bool, mrg_cons.
  destruct (lt y x); rewrite IH by (simpl in *; lia); simpl; rewrite <- app_assoc; reflexivity.
Qed.

Fixpoint psort (fuel : nat) (l : list sx) : list sx :=
  match fuel with
  | O => l
  | S fuel' =>
      let n := List.length l in
      if Nat.ltb n 2 then l
      else mrg (psort fuel' (firstn (Nat.div n 2) l)) (psort fuel' (skipn (Nat.div n 2) l))
  end.

Lemma mrg_perm : forall l r, Permutation (mrg l r) (l ++ r).
Proof.
  induction l as [|x l IHl]; intros r; [reflexivity|].
  induction r as [|y r IHr]; [rewrite app_nil_r; reflexivity|].
  rewrite mrg_cons. destruct (lt y x).
  - rewrite IHr. apply (Permutation_middle (x :: l)).
  - constructor. apply IHl.
Qed.

Lemma psort_perm : forall fuel l, Permutation (psort fuel l) l.
Proof.
  induction fuel as [|fuel IH]; intros l; [reflexivity|].
  cbn [psort]. destruct (Nat.ltb (List.length l) 2); [reflexivity|].
  rewrite mrg_perm, !IH, firstn_skipn. reflexivity.
Qed.

Lemma msort_pure : forall fuel l s, List.length l < fuel ->
  msort rec fuel pred l s = (Ok (psort fuel l), s).
Proof.
  induction fuel as [|fuel IH]; intros l s Hf; [lia|].
  cbn [msort psort]. destruct (Nat.ltb_spec (List.length l) 2) as [|H2]; [reflexivity|].
  destruct (halves_shorter l H2). unfold bind. rewrite !IH by lia.
  rewrite merge_pure; [reflexivity|].
  rewrite !(Permutation_length (psort_perm fuel _)), <- app_length, firstn_skipn. lia.
Qed.

(* lt a strict weak ordering: sorted and stable *)
Hypothesis lt_asym : forall a b, lt a b = true -> lt b a = false.
Hypothesis lt_negtrans : forall a c, lt a c = true -> forall b, lt a b = true \/ lt b c = true.

(* "b is not ordered ahead of a" *)
Definition le (a b : sx) : Prop := lt b a = false.
Definition eqv (a b : sx) : bool := negb (lt a b) && negb (lt b a).

Lemma le_refl a : le a a.
Proof. unfold le. destruct (lt a a) eqn:E; [rewrite (lt_asym a a E) in E; discriminate E|reflexivity]. Qed.

Lemma le_trans a b c : le a b -> le b c -> le a c.
Proof.
  unfold le. intros H1 H2. destruct (lt c a) eqn:E; [|reflexivity].
  destruct (lt_negtrans c a E b) as [H|H]; congruence.
Qed.

Lemma le_cons a b l : le a b -> Forall (le b) l -> Forall (le a) (b :: l).
Proof.
  intros H Hl. constructor; [exact H|]. eapply Forall_impl; [|exact Hl].
  intros z. apply le_trans, H.
Qed.

Lemma Forall_mrg P : forall l r, Forall P l -> Forall P r -> Forall P (mrg l r).
Proof.
  intros l r Hl Hr. eapply Permutation_Forall; [symmetry; apply mrg_perm|].
  apply Forall_app. split; assumption.
Qed.

Lemma mrg_sorted : forall l r, StronglySorted le l -> StronglySorted le r ->
  StronglySorted le (mrg l r).
Proof.
  induction l as [|x l IHl]; intros r Hl Hr; [assumption|].
  induction r as [|y r IHr]; [assumption|].
  rewrite mrg_cons. inversion Hl as [|? ? Hl' Hxl]. inversion Hr as [|? ? Hr' Hyr].
  destruct (lt y x) eqn:E; constructor.
  - apply IHr, Hr'.
  - apply Forall_mrg; [apply le_cons; [apply lt_asym, E|exact Hxl]|exact Hyr].
  - apply IHl; assumption.
  - apply Forall_mrg; [exact Hxl|apply le_cons; [exact E|exact Hyr]].
Qed.

Lemma psort_sorted : forall fuel l, List.length l < fuel -> StronglySorted le (psort fuel l).
Proof.
  induction fuel as [|fuel IH]; intros l Hf; [lia|].
  cbn [psort]. destruct (Nat.ltb_spec (List.length l) 2) as [H2|H2].
  - destruct l as [|a [|b l]]; simpl in H2; try lia; repeat constructor.
  - destruct (halves_shorter l H2). apply mrg_sorted; apply IH; lia.
Qed.

(* stability: the elements of each class of indistinguishable elements keep *)
(* their original relative order                                            *)
Lemma eqv_sym a b : eqv a b = eqv b a.
Proof. apply andb_comm. Qed.

Lemma eqv_blocks x0 y z : eqv x0 y = true -> eqv x0 z = true -> lt y z = false.
Proof.
  unfold eqv. intros H1 H2. apply andb_true_iff in H1 as [A1 A2]. apply andb_true_iff in H2 as [B1 B2].
  apply negb_true_iff in A1, A2, B1, B2.
  destruct (lt y z) eqn:E; [|reflexivity].
  destruct (lt_negtrans y z E x0) as [H|H]; congruence.
Qed.

(* with a member of the class of x0 ahead of x, the class has no member from x on *)
Lemma class_ahead x0 y x zs : eqv x0 y = true -> lt y x = true ->
  Forall (le x) zs -> filter (eqv x0) zs = [].
Proof.
  intros Ey E Hall. induction Hall as [|z zs Hz _ IH]; [reflexivity|].
  cbn [filter]. destruct (eqv x0 z) eqn:Ez; [|exact IH].
  pose proof (eqv_blocks x0 y z Ey Ez) as Hyz.
  destruct (lt_negtrans y x E z) as [H|H]; unfold le in Hz; congruence.
Qed.

Lemma mrg_stable x0 : forall l r, StronglySorted le l ->
  filter (eqv x0) (mrg l r) = filter (eqv x0) l ++ filter (eqv x0) r.
Proof.
  induction l as [|x l IHl]; intros r Hl; [reflexivity|].
  induction r as [|y r IHr]; [rewrite app_nil_r; reflexivity|].
  rewrite mrg_cons. inversion Hl as [|? ? Hl' Hxl].
  destruct (lt y x) eqn:E.
  - change (y :: mrg (x :: l) r) with ([y] ++ mrg (x :: l) r). change (y :: r) with ([y] ++ r).
    rewrite !filter_app, IHr. simpl (filter _ [y]).
    destruct (eqv x0 y) eqn:Ey; [|reflexivity].
    rewrite (class_ahead x0 y x (x :: l) Ey E); [reflexivity|].
    apply le_cons; [apply le_refl|assumption].
  - cbn [filter]. rewrite IHl by assumption.
    destruct (eqv x0 x); reflexivity.
Qed.

Lemma psort_stable x0 : forall fuel l, List.length l < fuel ->
  filter (eqv x0) (psort fuel l) = filter (eqv x0) l.
Proof.
  induction fuel as [|fuel IH]; intros l Hf; [lia|].
  cbn [psort]. destruct (Nat.ltb_spec (List.length l) 2) as [|H2]; [reflexivity|].
  destruct (halves_shorter l H2).
  rewrite mrg_stable by (apply psort_sorted; lia).
  rewrite !IH by lia. rewrite <- filter_app, firstn_skipn. reflexivity.
Qed.

End SortPure.
