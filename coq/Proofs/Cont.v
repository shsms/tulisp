(* Continuity of the evaluator in its recursive instance: a computation that *)
(* gets its answers from an instance rec1 is reproduced by the fuelled         *)
(* interpreter for every sufficiently large fuel, provided rec1's answers are. *)
(* Used to prove that the definitional semantics of Spec/CoreSem refines to     *)
(* the model (C01, Proofs/CoreRefine.v).                                        *)
From TL Require Import Base.Base Model.Reader Model.Printer Model.Store Model.Eval.
From TL Require Import Proofs.Walks.
Local Open Scope nat_scope.

Definition Cont {A} (m1 : M A) (m2 : nat -> M A) : Prop :=
  forall s r s', m1 s = (r, s') -> r <> Fuel ->
                 exists f0, forall f, f0 <= f -> m2 f s = (r, s').

Lemma Cont_const {A} (m : M A) : Cont m (fun _ => m).
Proof. intros s r s' H _. exists 0. intros f _. exact H. Qed.

Lemma Cont_ret {A} (a : A) : Cont (ret a) (fun _ => ret a).
Proof. apply Cont_const. Qed.

Lemma Cont_ext {A} (m1 : M A) (m2 m2' : nat -> M A) f0 :
  (forall f s, f0 <= f -> m2 f s = m2' f s) -> Cont m1 m2 -> Cont m1 m2'.
Proof.
  intros He Hm s r s' H Hr. destruct (Hm _ _ _ H Hr) as [f1 H1].
  exists (Nat.max f0 f1). intros f Hf. rewrite <- He by lia. apply H1. lia.
Qed.

Lemma Cont_left {A} (m1 m1' : M A) (m2 : nat -> M A) :
  (forall s, m1' s = m1 s) -> Cont m1 m2 -> Cont m1' m2.
Proof. intros He Hm s r s' H Hr. rewrite He in H. eapply Hm; eassumption. Qed.

Lemma Cont_catch {A B} (m1 : M A) (m2 : nat -> M A) (k1 : res A -> M B) (k2 : nat -> res A -> M B) :
  Cont m1 m2 -> (forall r, r <> Fuel -> Cont (k1 r) (fun f => k2 f r)) ->
  Cont (catch m1 k1) (fun f => catch (m2 f) (k2 f)).
Proof.
  intros Hm Hk s r s' H Hr.
  destruct (catch_inv _ _ _ _ _ H Hr) as (r1 & s1 & E1 & Hr1 & H').
  destruct (Hm _ _ _ E1 Hr1) as [f1 H1]. destruct (Hk r1 Hr1 _ _ _ H' Hr) as [f2 H2].
  exists (Nat.max f1 f2). intros f Hf. unfold catch. rewrite H1 by lia.
  rewrite <- (H2 f) by lia. destruct r1; auto; congruence.
Qed.

(* bind is a catch that hands failures on (Store.bind_catch) *)
Lemma Cont_bind {A B} (m1 : M A) (m2 : nat -> M A) (k1 : A -> M B) (k2 : nat -> A -> M B) :
  Cont m1 m2 -> (forall a, Cont (k1 a) (fun f => k2 f a)) ->
  Cont (bind m1 k1) (fun f => bind (m2 f) (k2 f)).
Proof.
  intros Hm Hk. eapply Cont_left; [intros s; apply bind_catch|].
  eapply Cont_ext with (f0 := 0); [intros f s _; symmetry; apply bind_catch|].
  apply Cont_catch; [exact Hm|]. intros [a|e|n|] Hr; [apply Hk|apply Cont_const..|congruence].
Qed.

Lemma Cont_S {A} (m1 : M A) (m2 : nat -> M A) :
  Cont m1 (fun f => m2 (S f)) -> Cont m1 m2.
Proof.
  intros Hm s r s' H Hr. destruct (Hm _ _ _ H Hr) as [f0 H0].
  exists (S f0). intros [|f] Hf; [lia|]. apply H0. lia.
Qed.

(* against a constant family: m1' answers whatever m1 answers *)
Lemma Cont_trans {A} (m1 m1' : M A) (m2 : nat -> M A) :
  Cont m1 (fun _ => m1') -> Cont m1' m2 -> Cont m1 m2.
Proof.
  intros H1 H2 s r s' H Hr. destruct (H1 s r s' H Hr) as [f0 H0].
  exact (H2 s r s' (H0 f0 (le_n f0)) Hr).
Qed.

Create HintDb c0.

(* One step along the monadic structure; the hints supply the instance's own   *)
(* answers and the helpers already done.  A match or if is split on the left   *)
(* side alone: the right side has the same scrutinee.  The last alternative is *)
(* Cont_const up to unification, for sides that differ by a reduction.  The    *)
(* hints are declared in sections and end with them: outside, c0 has what the  *)
(* user declares (CoreRefine.v).                                               *)
Ltac c0_step :=
  first
    [ match goal with
      | |- Cont ?m (fun _ => ?m) => apply Cont_const
      | |- Cont (bind _ _) (fun f => bind _ _) => apply Cont_bind; [ | intros ? ]
      | |- Cont (catch _ _) (fun f => catch _ _) => apply Cont_catch; [ | intros ? ? ]
      | |- Cont (match ?x with _ => _ end) _ => destruct x
      | |- Cont (if ?x then _ else _) _ => destruct x
      end
    | solve [auto with c0]
    | solve [apply Cont_const] ].
Ltac c0 := repeat c0_step.

Section ContStep.
Variable F : fops.
Variable rec1 : task -> M sx.
Variable recm : nat -> task -> M sx.
Variable load1 : text -> M sx.
Variable loadm : nat -> text -> M sx.
Hypothesis Hrec : forall t, Cont (rec1 t) (fun f => recm f t).
Hypothesis Hload : forall t, Cont (load1 t) (fun f => loadm f t).

Lemma ev_C x : Cont (ev rec1 x) (fun f => ev (recm f) x).
Proof. apply Hrec. Qed.
Lemma call_C e fn a : Cont (call rec1 e fn a) (fun f => call (recm f) e fn a).
Proof. apply Hrec. Qed.
Lemma expand_C x : Cont (expand rec1 x) (fun f => expand (recm f) x).
Proof. apply Hrec. Qed.
Lemma rec_C t : Cont (rec1 t) (fun f => recm f t).
Proof. apply Hrec. Qed.
Hint Resolve ev_C call_C expand_C rec_C : c0.
Hint Extern 1 (Cont (load1 _) _) => apply Hload : c0.

Lemma eval_progn_l_C : forall l last,
  Cont (eval_progn_l rec1 l last) (fun f => eval_progn_l (recm f) l last).
Proof. induction l; intros; simpl; c0. Qed.
Hint Resolve eval_progn_l_C : c0.
Lemma eval_progn_C b : Cont (eval_progn rec1 b) (fun f => eval_progn (recm f) b).
Proof. unfold eval_progn. c0. Qed.
Hint Resolve eval_progn_C : c0.
Lemma eval_each_C : forall l, Cont (eval_each rec1 l) (fun f => eval_each (recm f) l).
Proof. induction l; simpl; c0. Qed.
Hint Resolve eval_each_C : c0.
Lemma arg_req_C e a : Cont (arg_req rec1 e a) (fun f => arg_req (recm f) e a).
Proof. unfold arg_req. c0. Qed.
Lemma arg_opt_C e a : Cont (arg_opt rec1 e a) (fun f => arg_opt (recm f) e a).
Proof. unfold arg_opt. c0. Qed.
Lemma arg_rest_C e a : Cont (arg_rest rec1 e a) (fun f => arg_rest (recm f) e a).
Proof. unfold arg_rest. c0. Qed.
Hint Resolve arg_req_C arg_opt_C arg_rest_C : c0.
Lemma zip_args_C e : forall ps args,
  Cont (zip_args rec1 e ps args) (fun f => zip_args (recm f) e ps args).
Proof. induction ps; intros; simpl; c0. Qed.
Hint Resolve zip_args_C : c0.

Lemma eval_function_C e ps body args :
  Cont (eval_function rec1 e ps body args) (fun f => eval_function (recm f) e ps body args).
Proof. unfold eval_function. c0. Qed.
Hint Resolve eval_function_C : c0.

Lemma eval_bq_spine_C x :
  Cont (eval_bq rec1 x) (fun f => eval_bq (recm f) x) /\
  forall acc, Cont (bq_spine rec1 x acc) (fun f => bq_spine (recm f) x acc).
Proof.
  induction x as [| | | | | | | |a [IHa _] d [_ IHd]|x [IHx _]| | | | | | | | | |].
  (* eval_bq of a cons is its spine walk from Nil *)
  9: enough (Hs : forall acc, Cont (bq_spine rec1 (Cons a d) acc)
                                   (fun f => bq_spine (recm f) (Cons a d) acc))
       by (split; [exact (Hs Nil)|exact Hs]).
  all: try split; intros; cbn [eval_bq bq_spine]; c0.
Qed.

Lemma eval_bq_C : forall n x, sx_size x <= n -> Cont (eval_bq rec1 x) (fun f => eval_bq (recm f) x).
Proof. intros n x _. apply eval_bq_spine_C. Qed.
(* [apply] takes the first part of the conjunction *)
Hint Extern 2 (Cont (eval_bq _ _) _) => apply eval_bq_spine_C : c0.

Lemma apply_pmac_C m args : Cont (apply_pmac rec1 m args) (fun f => apply_pmac (recm f) m args).
(* no built-in macro consults the instance: the section hypothesis is named only *)
(* so that the lemma keeps the shape of its neighbours                           *)
Proof using Hrec. destruct m; c0. Qed.
Hint Resolve apply_pmac_C : c0.

Lemma merge_fuel_C pred : forall fuel l r acc,
  Cont (merge_fuel rec1 fuel pred l r acc) (fun f => merge_fuel (recm f) fuel pred l r acc).
Proof. induction fuel; intros; simpl; c0. Qed.
Hint Resolve merge_fuel_C : c0.
Lemma msort_C pred : forall fuel l,
  Cont (msort rec1 fuel pred l) (fun f => msort (recm f) fuel pred l).
Proof. induction fuel; intros; simpl; c0. Qed.
Hint Resolve msort_C : c0.

Lemma assoc_find_C (t1 : sx -> M bool) (t2 : nat -> sx -> M bool) :
  (forall k, Cont (t1 k) (fun f => t2 f k)) ->
  forall al, Cont (assoc_find t1 al) (fun f => assoc_find (t2 f) al).
Proof. intros Ht. induction al; simpl; c0. Qed.
Lemma assoc_C k al tf : Cont (assoc F rec1 k al tf) (fun f => assoc F (recm f) k al tf).
Proof. unfold assoc. c0. apply assoc_find_C. intros. c0. Qed.
Hint Resolve assoc_C : c0.

Lemma reduce_rest_C op : forall rest acc,
  Cont (reduce_rest rec1 op acc rest) (fun f => reduce_rest (recm f) op acc rest).
Proof. induction rest; intros; simpl; c0. Qed.
Hint Resolve reduce_rest_C : c0.
Lemma reduce_with_C op args : Cont (reduce_with rec1 op args) (fun f => reduce_with (recm f) op args).
Proof. unfold reduce_with. c0. Qed.
Hint Resolve reduce_with_C : c0.
Lemma compare_chain_C c : forall l prev holds,
  Cont (compare_chain F rec1 c l prev holds) (fun f => compare_chain F (recm f) c l prev holds).
Proof. induction l; intros; simpl; c0. Qed.
Hint Resolve compare_chain_C : c0.
Lemma predicate_C args (p : sx -> M bool) :
  Cont (predicate rec1 args p) (fun f => predicate (recm f) args p).
Proof. unfold predicate. c0. Qed.
Hint Resolve predicate_C : c0.
Lemma string_cmp_C args p : Cont (string_cmp rec1 args p) (fun f => string_cmp (recm f) args p).
Proof. unfold string_cmp. c0. Qed.
Hint Resolve string_cmp_C : c0.
Lemma and_l_C : forall l last, Cont (and_l rec1 l last) (fun f => and_l (recm f) l last).
Proof. induction l; intros; simpl; c0. Qed.
Lemma or_l_C : forall l, Cont (or_l rec1 l) (fun f => or_l (recm f) l).
Proof. induction l; simpl; c0. Qed.
Lemma cond_l_C : forall l, Cont (cond_l rec1 l) (fun f => cond_l (recm f) l).
Proof. induction l; simpl; c0. Qed.
Lemma map_l_C fn : forall l, Cont (map_l rec1 fn l) (fun f => map_l (recm f) fn l).
Proof. induction l; simpl; c0. Qed.
Lemma filter_l_C fn : forall l, Cont (filter_l rec1 fn l) (fun f => filter_l (recm f) fn l).
Proof. induction l; simpl; c0. Qed.
Lemma reduce_l_C fn : forall l acc, Cont (reduce_l rec1 fn l acc) (fun f => reduce_l (recm f) fn l acc).
Proof. induction l; intros; simpl; c0. Qed.
Lemma find_l_C fn : forall l, Cont (find_l rec1 fn l) (fun f => find_l (recm f) fn l).
Proof. induction l; simpl; c0. Qed.
Hint Resolve and_l_C or_l_C cond_l_C map_l_C filter_l_C reduce_l_C find_l_C : c0.

Lemma let_bind_C : forall vars bound,
  Cont (let_bind rec1 vars bound) (fun f => let_bind (recm f) vars bound).
Proof. induction vars; intros; simpl; c0. Qed.
Hint Resolve let_bind_C : c0.
Lemma do_let_C args : Cont (do_let rec1 args) (fun f => do_let (recm f) args).
Proof. unfold do_let. c0. Qed.
Hint Resolve do_let_C : c0.
Lemma dolist_loop_C var body : forall n lst,
  Cont (dolist_loop rec1 n var lst body) (fun f => dolist_loop (recm f) n var lst body).
Proof. induction n; intros; simpl; c0. Qed.
Hint Resolve dolist_loop_C : c0.

Lemma apply_prim_C p args :
  Cont (apply_prim F rec1 load1 p args) (fun f => apply_prim F (recm f) (loadm f) p args).
Proof. destruct p; cbn [apply_prim]; c0. Qed.
Hint Resolve apply_prim_C : c0.

Lemma expand_spine_C : forall d a acc,
  Cont (expand_spine rec1 a d acc) (fun f => expand_spine (recm f) a d acc).
Proof. induction d; intros; simpl; c0. Qed.

Lemma step_C t : Cont (step F rec1 load1 t) (fun f => step F (recm f) (loadm f) t).
Proof.
  destruct t; cbn [step]; c0.
  (* left: the spine loop of TExpand *)
  apply expand_spine_C.
Qed.

End ContStep.

Section ContTop.
Variable F : fops.
Variable rec1 : task -> M sx.
Variable recm : nat -> task -> M sx.
Hypothesis Hrec : forall t, Cont (rec1 t) (fun f => recm f t).

Hint Resolve Hrec : c0.

Lemma readtime_all_of_C l :
  Forall (fun x => Cont (readtime rec1 x) (fun f => readtime (recm f) x)) l ->
  Cont (readtime_all rec1 l) (fun f => readtime_all (recm f) l).
Proof. induction 1; simpl; c0. Qed.

Lemma readtime_C x : Cont (readtime rec1 x) (fun f => readtime (recm f) x).
Proof.
  induction x as [xs tl sp IHxs IHtl| | | | |x Hx] using ax_ind'; cbn [readtime];
    try solve [c0]; [|destruct x; solve [contradiction|c0]].
  (* the element loop, an anonymous fix after cbn, is readtime_all by conversion *)
  (* (the equation is Walks.readtime_list; no rewriting under [fun f])           *)
  apply Cont_bind; [apply readtime_all_of_C, IHxs|intros elems].
  apply Cont_bind; [|intros; c0]. destruct tl; [|c0].
  apply Cont_bind; [apply IHtl; reflexivity|intros; c0].
Qed.

Lemma readtime_all_C l : Cont (readtime_all rec1 l) (fun f => readtime_all (recm f) l).
Proof. apply readtime_all_of_C, Forall_forall. intros x _. apply readtime_C. Qed.

Lemma parse_body_C t : Cont (parse_body F rec1 t) (fun f => parse_body F (recm f) t).
Proof.
  eapply Cont_left; [apply parse_body_eq|].
  eapply Cont_ext with (f0 := 0); [intros f s _; symmetry; apply parse_body_eq|].
  apply Cont_bind; [apply Cont_const|]. intros forms.
  apply Cont_bind; [apply readtime_all_C|intros; apply Hrec].
Qed.

Lemma run_body_C t : Cont (run_body F rec1 t) (fun f => run_body F (recm f) t).
Proof.
  unfold run_body. apply Cont_bind; [apply parse_body_C|]. intros out.
  apply (eval_progn_C rec1 recm Hrec).
Qed.
End ContTop.
