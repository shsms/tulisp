(* C04: evaluation is insensitive to binding-stack entries buried below the   *)
(* top ("hidden frames"): the frames of pending tail-callers that ordinary      *)
(* recursion keeps on the stacks and the trampoline has already popped.         *)
(* The walk over the evaluator is that of EvalRel.v once more, with [R2] for    *)
(* R0, and the judgment [Sim] for RH where bindings are pushed and popped.      *)
From TL Require Import Base.Base Model.Reader Model.Printer Model.Store Model.Eval.
From TL Require Import Proofs.EvalRel Proofs.Walks.
Local Open Scope nat_scope.
Local Open Scope list_scope.

(* [insl H fl l]: the entries [H] inserted into [l] at height [fl] from the bottom *)
Definition insl (H : list sx) (fl : nat) (l : list sx) : list sx :=
  firstn (List.length l - fl) l ++ H ++ skipn (List.length l - fl) l.

Lemma insl_nil fl l : insl [] fl l = l.
Proof. unfold insl. simpl. apply firstn_skipn. Qed.

Lemma insl_cons H fl x r : fl <= List.length r -> insl H fl (x :: r) = x :: insl H fl r.
Proof.
  intros Hf. unfold insl. simpl List.length.
  replace (S (List.length r) - fl) with (S (List.length r - fl)) by lia. reflexivity.
Qed.

Lemma insl_length H fl l : List.length (insl H fl l) = List.length l + List.length H.
Proof.
  unfold insl. rewrite !app_length, firstn_length, skipn_length. lia.
Qed.

Lemma firstn_app_exact {A} (a b : list A) : firstn (List.length a) (a ++ b) = a.
Proof. rewrite firstn_app, Nat.sub_diag, firstn_all, firstn_O, app_nil_r. reflexivity. Qed.
Lemma skipn_app_exact {A} (a b : list A) : skipn (List.length a) (a ++ b) = b.
Proof. rewrite skipn_app, Nat.sub_diag, skipn_all, skipn_O. reflexivity. Qed.

Lemma insl_mid H P l : insl H (List.length l) (P ++ l) = P ++ H ++ l.
Proof.
  unfold insl. rewrite app_length, Nat.add_sub, firstn_app_exact, skipn_app_exact. reflexivity.
Qed.

Lemma replace_last_app : forall X B v, B <> [] -> replace_last (X ++ B) v = X ++ replace_last B v.
Proof.
  induction X as [|x X IH]; intros B v HB; [reflexivity|].
  simpl. destruct (X ++ B) eqn:E.
  - destruct X; destruct B; simpl in E; congruence.
  - rewrite <- E. rewrite IH by assumption. reflexivity.
Qed.

Lemma insl_replace_last H fl l v : 1 <= fl -> fl <= List.length l ->
  replace_last (insl H fl l) v = insl H fl (replace_last l v).
Proof.
  intros H1 H2.
  (* l = A ++ B, B of height fl *)
  assert (E : exists A B, l = A ++ B /\ List.length B = fl).
  { exists (firstn (List.length l - fl) l), (skipn (List.length l - fl) l).
    rewrite firstn_skipn, skipn_length. split; [reflexivity|lia]. }
  destruct E as (A & B & -> & <-).
  assert (HB : B <> []) by (destruct B; [simpl in H1; lia|discriminate]).
  rewrite replace_last_app, insl_mid, app_assoc, replace_last_app, <- app_assoc by assumption.
  rewrite <- (insl_mid H A (replace_last B v)), length_replace_last. f_equal. lia.
Qed.

Section Hidden.
Variable hk : key -> list sx.      (* the hidden entries of each symbol (top first) *)
Variable hf : key -> nat.          (* the height, from the bottom, at which they sit *)
Variable trk : key -> Prop.        (* the symbols that are tracked *)
Hypothesis Htrk : forall k, hk k <> [] -> trk k.

Definition insb (k : key) (b : binding) : binding :=
  {| has_global := has_global b; bitems := insl (hk k) (hf k) (bitems b) |}.

(* the second world's stack of a tracked symbol is higher than the height [hf k],    *)
(* so that both worlds see the same top entry; and entries hidden at the very bottom *)
(* are not taken for a global value.  [trk] may be larger than the support of [hk]:  *)
(* Tramp.v tracks every parameter symbol, because one that gets buried entries in a  *)
(* later iteration must be without a global marker then (its cleanP).  SR, wf and    *)
(* quiet set up for a use: Tramp.SR_Top, Frame.interior.                             *)
Definition wfk (k : key) (b : binding) : Prop :=
  trk k -> hf k < List.length (bitems b) /\ (hf k = 0 -> has_global b = false).

Lemma insb_plain k b : hk k = [] -> insb k b = b.
Proof. intros H. unfold insb. rewrite H, insl_nil. destruct b; reflexivity. Qed.

Lemma hidden_trk k : hk k = [] \/ trk k.
Proof. destruct (hk k) eqn:E; [left; reflexivity|right; apply Htrk; rewrite E; discriminate]. Qed.

Lemma insb_top k b : wfk k b ->
  bitems (insb k b) = match bitems b with
                      | [] => []
                      | x :: r => x :: insl (hk k) (hf k) r
                      end.
Proof.
  intros Hw. destruct (hidden_trk k) as [E|Ht].
  - rewrite (insb_plain k b E), E. destruct (bitems b); [|rewrite insl_nil]; reflexivity.
  - destruct (Hw Ht) as [L _]. unfold insb; simpl.
    destruct (bitems b) as [|x r]; [simpl in L; lia|]. apply insl_cons. simpl in L. lia.
Qed.

(* every component but the store is the same *)
Definition same_rest (s1 s2 : st) : Prop :=
  next_id s1 = next_id s2 /\ log s1 = log s2 /\ steps s1 = steps s2 /\ fail_at s1 = fail_at s2 /\
  htabs s1 = htabs s2 /\ flags s1 = flags s2 /\ files s1 = files s2 /\ nfiles s1 = nfiles s2 /\
  mlog s1 = mlog s2 /\ glog s1 = glog s2.

Definition set_store (s : st) (m : PositiveMap.t binding) : st :=
  {| store := m; next_id := next_id s; log := log s; steps := steps s; fail_at := fail_at s;
     htabs := htabs s; flags := flags s; files := files s; nfiles := nfiles s;
     mlog := mlog s; glog := glog s |}.

Lemma set_store_same s : set_store s (store s) = s.
Proof. destruct s; reflexivity. Qed.

Lemma same_rest_store s1 s2 : same_rest s1 s2 -> s1 = set_store s2 (store s1).
Proof.
  destruct s1, s2. unfold same_rest, set_store; simpl.
  intros (-> & -> & -> & -> & -> & -> & -> & -> & -> & ->). reflexivity.
Qed.

Lemma same_rest_refl s : same_rest s s.
Proof. unfold same_rest. repeat split; reflexivity. Qed.
Lemma same_rest_sym a b : same_rest a b -> same_rest b a.
Proof. intros H. rewrite (same_rest_store _ _ H). unfold same_rest. repeat split. Qed.
Lemma same_rest_trans a b c : same_rest a b -> same_rest b c -> same_rest a c.
Proof.
  intros H1 H2. rewrite (same_rest_store _ _ H1), (same_rest_store _ _ H2). unfold same_rest. repeat split.
Qed.
Lemma same_rest_sput s k b : same_rest (sput s k b) s.
Proof. unfold same_rest. repeat split; reflexivity. Qed.
Lemma same_rest_glog a b : same_rest a b -> glog a = glog b.
Proof. intros H. rewrite (same_rest_store _ _ H). reflexivity. Qed.
Lemma same_rest_mc a b k : same_rest a b -> mc a k = mc b k.
Proof. intros H. rewrite (same_rest_store _ _ H). reflexivity. Qed.

(* the two worlds: the first has, in each stack of the second, the hidden entries inserted *)
Definition SR (s1 s2 : st) : Prop :=
  same_rest s1 s2 /\ forall k, sget s1 k = insb k (sget s2 k).
Definition wf (s2 : st) : Prop := forall k, wfk k (sget s2 k).

(* [hz k]: tracked, the hidden entries at the very bottom *)
Definition hz (k : key) : Prop := trk k /\ hf k = 0.
Definition gsuffix (s s' : st) : Prop := exists new, glog s' = new ++ glog s.
(* the global slot of no such symbol was written *)
Definition quiet (s s' : st) : Prop := forall k, hz k -> cnt (glog s') k = cnt (glog s) k.
Definition dmono (s s' : st) : Prop := forall k, depth s k <= depth s' k.

Lemma gsuffix_refl s : gsuffix s s. Proof. exists []. reflexivity. Qed.
Lemma gsuffix_trans a b c : gsuffix a b -> gsuffix b c -> gsuffix a c.
Proof. intros [n1 H1] [n2 H2]. exists (n2 ++ n1). rewrite H2, H1, app_assoc. reflexivity. Qed.
Lemma gsuffix_sput s k b : gsuffix s (sput s k b).
Proof. exists []. reflexivity. Qed.
Lemma dmono_refl s : dmono s s. Proof. intros k. lia. Qed.
Lemma dmono_trans a b c : dmono a b -> dmono b c -> dmono a c.
Proof. intros H1 H2 k. specialize (H1 k). specialize (H2 k). lia. Qed.

Lemma quiet_split a b c : gsuffix a b -> gsuffix b c -> quiet a c -> quiet a b /\ quiet b c.
Proof.
  intros [n1 H1] [n2 H2] Hq. split; intros k Hk; specialize (Hq k Hk);
    rewrite H2, H1 in Hq; rewrite !cnt_app in Hq; rewrite ?H2, ?H1, ?cnt_app; lia.
Qed.

(* [R2 m1 m2]: a quiet run of [m1] in the first world is matched by [m2] in the second, *)
(* and no stack of the second is left lower than it was; [G m1]: the log of global     *)
(* writes only grows                                                                   *)
Definition G {A} (m : M A) : Prop :=
  forall s r s', m s = (r, s') -> r <> Fuel -> gsuffix s s'.
Definition R2 {A} (m1 m2 : M A) : Prop :=
  G m1 /\
  forall s1 s2 r s1', SR s1 s2 -> wf s2 -> m1 s1 = (r, s1') -> r <> Fuel -> quiet s1 s1' ->
    exists s2', m2 s2 = (r, s2') /\ SR s1' s2' /\ wf s2' /\ dmono s2 s2'.

(* [above pend s0 s]: on top of the stacks of the well-formed [s0], [s] has at least *)
(* the pending temporary bindings [pend] (a multiset of keys)                       *)
Definition above (pend : list key) (s0 s : st) : Prop :=
  wf s0 /\ forall k, depth s0 k + cnt pend k <= depth s k.

Lemma above_refl s : wf s -> above [] s s.
Proof. intros Hw. split; [assumption|]. intros k. change (cnt [] k) with 0. lia. Qed.
Lemma above_dmono pend s0 s s' : above pend s0 s -> dmono s s' -> above pend s0 s'.
Proof. intros [Hw H] D. split; [assumption|]. intros k. specialize (H k). specialize (D k). lia. Qed.
Lemma above_nil p s0 s : above p s0 s -> above [] s0 s.
Proof.
  intros [Hw H]. split; [assumption|]. intros k. specialize (H k). change (cnt [] k) with 0. lia.
Qed.
Lemma above_to_dmono p s0 s : above p s0 s -> dmono s0 s.
Proof. intros [_ H] k. specialize (H k). lia. Qed.

(* [Sim P m1 m2 Q E]: what EvalRel's RH is to R0: as R2, from second-world states that *)
(* satisfy [P]; [Q a] holds after a value [a], [E] after any other outcome.  That the   *)
(* ghost log only grows is part of it and asks nothing of the start, so that a run can  *)
(* be cut in two quiet halves before either half is simulated.                          *)
Definition Sim {A} (P : st -> Prop) (m1 m2 : M A) (Q : A -> st -> Prop) (E : st -> Prop) : Prop :=
  forall s1 r s1', m1 s1 = (r, s1') -> r <> Fuel ->
    gsuffix s1 s1' /\
    forall s2, SR s1 s2 -> wf s2 -> P s2 -> quiet s1 s1' ->
      exists s2', m2 s2 = (r, s2') /\ SR s1' s2' /\ wf s2' /\ after Q E r s2'.

Lemma R2_Sim {A} (m1 m2 : M A) pend s0 : R2 m1 m2 ->
  Sim (above pend s0) m1 m2 (fun _ => above pend s0) (above pend s0).
Proof.
  intros [Gm Hm] s1 r s1' H Hr. split; [exact (Gm _ _ _ H Hr)|]. intros s2 HS Hw HA Hq.
  destruct (Hm _ _ _ _ HS Hw H Hr Hq) as (s2' & E2 & HS' & Hw' & D). exists s2'.
  split; [exact E2|]. split; [exact HS'|]. split; [exact Hw'|].
  destruct r; exact (above_dmono _ _ _ _ HA D).
Qed.

Lemma Sim_R2 {A} (m1 m2 : M A) :
  (forall s0, Sim (above [] s0) m1 m2 (fun _ => above [] s0) (above [] s0)) -> R2 m1 m2.
Proof.
  intros H. split.
  - intros s r s' Hm Hr. apply (H s _ _ _ Hm Hr).
  - intros s1 s2 r s1' HS Hw Hm Hr Hq. destruct (H s2 _ _ _ Hm Hr) as [_ S].
    destruct (S s2 HS Hw (above_refl s2 Hw) Hq) as (s2' & E2 & HS' & Hw' & HA). exists s2'.
    split; [exact E2|]. split; [exact HS'|]. split; [exact Hw'|].
    apply (above_to_dmono []). destruct r; exact HA.
Qed.

Lemma Sim_pre {A} (P P' : st -> Prop) Q E (m1 m2 : M A) :
  (forall s, P' s -> P s) -> Sim P m1 m2 Q E -> Sim P' m1 m2 Q E.
Proof.
  intros HP H s1 r s1' Hm Hr. destruct (H _ _ _ Hm Hr) as [G1 S]. split; [exact G1|].
  intros s2 HS Hw HP'. apply (S s2 HS Hw (HP _ HP')).
Qed.

Lemma Sim_ext {A} P Q E (m1 m2 m1' m2' : M A) :
  (forall s, m1 s = m1' s) -> (forall s, m2 s = m2' s) -> Sim P m1' m2' Q E -> Sim P m1 m2 Q E.
Proof.
  intros E1 E2 H s1 r s1' Hm Hr. rewrite E1 in Hm. destruct (H _ _ _ Hm Hr) as [G1 S].
  split; [exact G1|]. intros s2. rewrite E2. apply S.
Qed.

Lemma Sim_lift {A} Q E (x : res A) : Sim (after Q E x) (lift x) (lift x) Q E.
Proof.
  intros s1 r s1' H _. inversion H; subst. split; [apply gsuffix_refl|].
  intros s2 HS Hw HP _. exists s2. auto.
Qed.
Lemma Sim_ret {A} Q E (a : A) : Sim (Q a) (ret a) (ret a) Q E.
Proof. apply (Sim_lift Q E (Ok a)). Qed.
Lemma Sim_fail {A} (Q : A -> st -> Prop) E e : Sim E (fail e) (fail e) Q E.
Proof. apply (Sim_lift Q E (Err e)). Qed.

(* the one proof that cuts a run in two *)
Lemma Sim_catch {A B} P Q E Q' E' (m1 m2 : M A) (k1 k2 : res A -> M B) :
  Sim P m1 m2 Q E ->
  (forall r, r <> Fuel -> (exists s s', m1 s = (r, s')) -> Sim (after Q E r) (k1 r) (k2 r) Q' E') ->
  Sim P (catch m1 k1) (catch m2 k2) Q' E'.
Proof.
  intros Hm Hk s1 r s1' H Hr. destruct (catch_inv _ _ _ _ _ H Hr) as (r1 & sm & E1 & Hr1 & H').
  destruct (Hm _ _ _ E1 Hr1) as [G1 S1].
  destruct (Hk r1 Hr1 (ex_intro _ _ (ex_intro _ _ E1)) _ _ _ H' Hr) as [G2 S2].
  split; [exact (gsuffix_trans _ _ _ G1 G2)|]. intros s2 HS Hw HP Hq.
  destruct (quiet_split _ _ _ G1 G2 Hq) as [Q1 Q2].
  destruct (S1 s2 HS Hw HP Q1) as (sm2 & E2 & HSm & Hwm & HA).
  destruct (S2 sm2 HSm Hwm HA Q2) as (s2' & E3 & K).
  exists s2'. split; [|exact K]. unfold catch. rewrite E2. destruct r1; auto; congruence.
Qed.

Lemma Sim_bind {A B} P Q E Q' (m1 m2 : M A) (f1 f2 : A -> M B) :
  Sim P m1 m2 Q E ->
  (forall a, (exists s s', m1 s = (Ok a, s')) -> Sim (Q a) (f1 a) (f2 a) Q' E) ->
  Sim P (bind m1 f1) (bind m2 f2) Q' E.
Proof.
  intros Hm Hf. eapply Sim_ext; [apply bind_catch|apply bind_catch|].
  apply (Sim_catch _ _ _ _ _ _ _ _ _ Hm). intros [a|e|n|] Hr Hex.
  - apply Hf, Hex.
  - apply (Sim_lift Q' E (Err e)).
  - apply (Sim_lift Q' E (Panic n)).
  - congruence.
Qed.

Lemma Sim_finally {A} P P' Q (body1 body2 : M A) (u1 u2 : M unit) :
  Sim P body1 body2 (fun _ => P') P' -> Sim P' u1 u2 (fun _ => Q) Q ->
  Sim P (catch body1 (fun r => bind u1 (fun _ => lift r)))
        (catch body2 (fun r => bind u2 (fun _ => lift r))) (fun _ => Q) Q.
Proof.
  intros Hb Hu. eapply Sim_catch; [exact Hb|]. intros r _ _.
  destruct r; (eapply Sim_bind; [exact Hu|]; intros ? _; apply (Sim_lift (fun _ => Q) Q)).
Qed.

Lemma R2_lift {A} (x : res A) : R2 (lift x) (lift x).
Proof. apply Sim_R2. intros s0. destruct x; apply (Sim_lift (fun _ => above [] s0) (above [] s0)). Qed.
Lemma R2_ret {A} (a : A) : R2 (ret a) (ret a).
Proof. apply (R2_lift (Ok a)). Qed.
Lemma R2_fail {A} e : R2 (@fail A e) (fail e).
Proof. apply (R2_lift (Err e)). Qed.
Lemma R2_panic {A} n : R2 (@panic A n) (panic n).
Proof. apply (R2_lift (Panic n)). Qed.

Lemma R2_bind {A B} (m1 m2 : M A) (f1 f2 : A -> M B) :
  R2 m1 m2 -> (forall a, R2 (f1 a) (f2 a)) -> R2 (bind m1 f1) (bind m2 f2).
Proof.
  intros Hm Hf. apply Sim_R2. intros s0.
  eapply Sim_bind; [apply R2_Sim, Hm|]. intros a _. apply R2_Sim, Hf.
Qed.

Lemma R2_catch {A B} (m1 m2 : M A) (k1 k2 : res A -> M B) :
  R2 m1 m2 -> (forall r, r <> Fuel -> R2 (k1 r) (k2 r)) -> R2 (catch m1 k1) (catch m2 k2).
Proof.
  intros Hm Hk. apply Sim_R2. intros s0.
  eapply Sim_catch; [apply R2_Sim, Hm|]. intros r Hr _. destruct r; apply R2_Sim, Hk, Hr.
Qed.

Lemma R2_ext {A} (m1 m2 m1' m2' : M A) :
  (forall s, m1 s = m1' s) -> (forall s, m2 s = m2' s) -> R2 m1' m2' -> R2 m1 m2.
Proof.
  intros E1 E2 H. apply Sim_R2. intros s0. eapply Sim_ext; [exact E1|exact E2|apply R2_Sim, H].
Qed.

Lemma SR_sget s1 s2 k : SR s1 s2 -> sget s1 k = insb k (sget s2 k).
Proof. intros [_ H]. apply H. Qed.

Lemma SR_sput s1 s2 k b : SR s1 s2 -> SR (sput s1 k (insb k b)) (sput s2 k b).
Proof.
  intros [Hr Hs]. split; [exact Hr|]. intros k'. destruct (Pos.eq_dec k k') as [<-|N].
  - rewrite !sget_sput_same. reflexivity.
  - rewrite !sget_sput_other by assumption. apply Hs.
Qed.

Lemma wf_sput s2 k b : wf s2 -> wfk k b -> wf (sput s2 k b).
Proof.
  intros Hw Hb k'. destruct (Pos.eq_dec k k') as [<-|N].
  - rewrite sget_sput_same. assumption.
  - rewrite sget_sput_other by assumption. apply Hw.
Qed.

Lemma dmono_sput s2 k b : List.length (bitems (sget s2 k)) <= List.length (bitems b) ->
  dmono s2 (sput s2 k b).
Proof.
  intros H k'. destruct (Pos.eq_dec k k') as [<-|N].
  - rewrite depth_sput_same. exact H.
  - rewrite depth_sput_other by assumption. lia.
Qed.

Lemma R2_peek {A} k (g : binding -> res A) (m : M A) :
  (forall s, m s = (g (sget s k), s)) -> (forall b, wfk k b -> g (insb k b) = g b) -> R2 m m.
Proof.
  intros Em Hg. split.
  - intros s r s' H _. rewrite Em in H. inversion H; subst. apply gsuffix_refl.
  - intros s1 s2 r s1' HS Hw H _ _. rewrite Em in H. inversion H; subst. exists s2.
    rewrite Em, (SR_sget _ _ k HS), (Hg _ (Hw k)). auto using dmono_refl.
Qed.

Lemma sym_get_R2 x : R2 (sym_get x) (sym_get x).
Proof.
  unfold sym_get. destruct (key_of x) as [k|]; [|apply R2_fail]. destruct (keywordp x); [apply R2_ret|].
  apply (R2_peek k (fun b => match bitems b with v :: _ => Ok v | [] => Err EType end)).
  - intros s. destruct (bitems (sget s k)); reflexivity.
  - intros b Hw. rewrite (insb_top k b Hw). destruct (bitems b); reflexivity.
Qed.

Lemma sym_boundp_R2 x : R2 (sym_boundp x) (sym_boundp x).
Proof.
  unfold sym_boundp. destruct (key_of x) as [k|]; [|apply R2_ret].
  apply (R2_peek k (fun b => Ok (negb (Nat.eqb (List.length (bitems b)) 0)))); [reflexivity|].
  intros b Hw. rewrite (insb_top k b Hw). destruct (bitems b); reflexivity.
Qed.

(* hidden entries sit where b_lex_bound does not look: above a global entry,  *)
(* or anywhere in a stack that is not empty                                   *)
Lemma b_lex_bound_ins k b : wfk k b -> b_lex_bound (insb k b) = b_lex_bound b.
Proof.
  intros Hw. destruct (hidden_trk k) as [E|Ht]; [rewrite (insb_plain k b E); reflexivity|].
  destruct (Hw Ht) as [L Hg]. unfold b_lex_bound, insb; simpl. rewrite insl_length.
  destruct (has_global b).
  - assert (hf k <> 0) by (intros Z; discriminate (Hg Z)).
    destruct (Nat.ltb_spec 1 (List.length (bitems b) + List.length (hk k))),
             (Nat.ltb_spec 1 (List.length (bitems b))); try reflexivity; lia.
  - destruct (Nat.eqb_spec (List.length (bitems b) + List.length (hk k)) 0),
             (Nat.eqb_spec (List.length (bitems b)) 0); try reflexivity; lia.
Qed.

Lemma lex_bound_R2 x : R2 (lex_bound x) (lex_bound x).
Proof.
  unfold lex_bound. destruct x; simpl; try apply R2_ret;
    (eapply R2_peek with (g := fun b => Ok (b_lex_bound b)); [reflexivity|];
     intros b Hw; f_equal; apply b_lex_bound_ins, Hw).
Qed.

Lemma Sim_sput k (f : binding -> binding) (P Q E : st -> Prop) :
  (forall b, wfk k b -> insb k (f b) = f (insb k b) /\ wfk k (f b)) ->
  (forall s, P s -> Q (sput s k (f (sget s k)))) ->
  Sim P (fun s => (Ok tt, sput s k (f (sget s k)))) (fun s => (Ok tt, sput s k (f (sget s k))))
      (fun _ => Q) E.
Proof.
  intros Hf HQ s1 r s1' H _. inversion H; subst. split; [apply gsuffix_sput|].
  intros s2 HS Hw HP _. destruct (Hf _ (Hw k)) as [Ei W]. eexists. split; [reflexivity|].
  split; [rewrite (SR_sget _ _ k HS), <- Ei; apply SR_sput, HS|].
  split; [apply wf_sput; assumption|apply HQ, HP].
Qed.

Lemma R2_sput k (f : binding -> binding) :
  (forall b, wfk k b -> insb k (f b) = f (insb k b) /\ wfk k (f b)) ->
  (forall b, List.length (bitems b) <= List.length (bitems (f b))) ->
  R2 (fun s => (Ok tt, sput s k (f (sget s k)))) (fun s => (Ok tt, sput s k (f (sget s k)))).
Proof.
  intros Hf Hl. apply Sim_R2. intros s0. apply Sim_sput; [exact Hf|].
  intros s HA. apply (above_dmono _ _ _ _ HA), dmono_sput, Hl.
Qed.

Lemma b_set_ins k b v : wfk k b -> insb k (b_set b v) = b_set (insb k b) v /\ wfk k (b_set b v).
Proof.
  intros Hw. unfold b_set. rewrite (insb_top k b Hw).
  destruct (hidden_trk k) as [E|Ht].
  - split; [destruct (bitems b); rewrite ?E, ?insl_nil; apply insb_plain, E|].
    intros Ht. destruct (Hw Ht) as [L Hg]. destruct (bitems b); [simpl in L; lia|split; assumption].
  - destruct (Hw Ht) as [L Hg]. destruct (bitems b) as [|x r]; [simpl in L; lia|]. simpl in L.
    split; [unfold insb; simpl; rewrite insl_cons by lia; reflexivity|intros _; split; assumption].
Qed.

Lemma with_key_R2 x (f : key -> M unit) :
  (forall k, R2 (f k) (f k)) -> R2 (with_key x f) (with_key x f).
Proof.
  intros Hf. unfold with_key. destruct (key_of x); [|apply R2_fail].
  destruct (is_constant x); [apply R2_fail|apply Hf].
Qed.

Lemma b_set_R2 k v :
  R2 (fun s => (Ok tt, sput s k (b_set (sget s k) v))) (fun s => (Ok tt, sput s k (b_set (sget s k) v))).
Proof.
  apply (R2_sput k (fun b => b_set b v)).
  - intros b. apply b_set_ins.
  - intros b. rewrite b_set_len. lia.
Qed.

Lemma sym_set_R2 x v : R2 (sym_set x v) (sym_set x v).
Proof. apply with_key_R2. intros k. apply b_set_R2. Qed.

(* set_unchecked is boundp followed by set or panic *)
Lemma sym_set_unchecked_R2 x v : R2 (sym_set_unchecked x v) (sym_set_unchecked x v).
Proof.
  unfold sym_set_unchecked. destruct (key_of x) as [k|] eqn:Ek; [|apply R2_ret].
  pose (m := bind (sym_boundp x)
               (fun b => if b then fun s => (Ok tt, sput s k (b_set (sget s k) v)) else panic 20%N)).
  apply (R2_ext _ _ m m).
  1,2: intros s; unfold m, bind, sym_boundp, depth; rewrite Ek; destruct (bitems (sget s k)); reflexivity.
  apply R2_bind; [apply sym_boundp_R2|]. intros [|]; [apply b_set_R2|apply R2_panic].
Qed.

Lemma b_scope_ins k b v : wfk k b ->
  insb k (b_set_scope b v) = b_set_scope (insb k b) v /\ wfk k (b_set_scope b v).
Proof.
  intros Hw. split.
  - unfold insb, b_set_scope; simpl. f_equal. destruct (hidden_trk k) as [E|Ht].
    + rewrite E, !insl_nil. reflexivity.
    + apply insl_cons. destruct (Hw Ht). lia.
  - intros Ht. destruct (Hw Ht) as [H1 H2]. simpl. split; [lia|assumption].
Qed.

Lemma sym_set_scope_R2 x v : R2 (sym_set_scope x v) (sym_set_scope x v).
Proof.
  apply with_key_R2. intros k. apply (R2_sput k (fun b => b_set_scope b v)).
  - intros b. apply b_scope_ins.
  - intros b. simpl. lia.
Qed.

Lemma SR_note s1 s2 k : SR s1 s2 -> SR (note_global k s1) (note_global k s2).
Proof.
  intros [HR Hs]. split; [|exact Hs]. rewrite (same_rest_store _ _ HR). unfold same_rest. repeat split.
Qed.

(* the bottom entry is below the hidden ones unless [hz k] *)
Lemma b_global_ins k b v : wfk k b -> ~ hz k ->
  insb k (b_set_global b v) = b_set_global (insb k b) v /\ wfk k (b_set_global b v).
Proof.
  intros Hw Hnz. destruct (hidden_trk k) as [E|Ht].
  - split; [rewrite !(insb_plain _ _ E); reflexivity|].
    intros Ht. destruct (Hw Ht) as [L _]. simpl. rewrite length_replace_last.
    split; [lia|]. intros Z. destruct Hnz. split; assumption.
  - destruct (Hw Ht) as [L _]. assert (hf k <> 0) by (intros Z; apply Hnz; split; assumption).
    split; [unfold insb, b_set_global; simpl; rewrite insl_replace_last by lia; reflexivity|].
    intros _. simpl. rewrite length_replace_last. split; [lia|]. intros Z. contradiction.
Qed.

Lemma sym_set_global_R2 x v : R2 (sym_set_global x v) (sym_set_global x v).
Proof.
  apply with_key_R2. intros k. split.
  - intros s r s' H _. inversion H; subst. exists [k]. reflexivity.
  - intros s1 s2 r s1' HS Hw H _ Hq. inversion H; subst; clear H.
    (* were [hz k], the run would not be quiet *)
    assert (Hnz : ~ hz k).
    { intros Hz. specialize (Hq k Hz). cbn [glog note_global sput] in Hq. rewrite cnt_cons_same in Hq. lia. }
    destruct (b_global_ins k (sget s2 k) v (Hw k) Hnz) as [Ei W].
    exists (note_global k (sput s2 k (b_set_global (sget s2 k) v))). split; [reflexivity|].
    split; [apply SR_note; rewrite (SR_sget _ _ k HS), <- Ei; apply SR_sput, HS|].
    split; [exact (wf_sput s2 k _ Hw W)|].
    apply (dmono_sput s2 k). simpl. rewrite length_replace_last. lia.
Qed.

(* operations on the other components commute with an exchange of the store *)
Lemma R2_rest {A} (m : M A) :
  (forall s st', m (set_store s st') = (fst (m s), set_store (snd (m s)) st')) ->
  (forall s, glog (snd (m s)) = glog s) -> R2 m m.
Proof.
  intros Hc Hg. split.
  - intros s r s' H _. exists []. rewrite <- (Hg s), H. reflexivity.
  - intros s1 s2 r s1' [HR HS] Hw H _ _. rewrite (same_rest_store _ _ HR), Hc in H.
    inversion H; subst r s1'; clear H. set (u := snd (m s2)).
    assert (Eu : forall k, sget u k = sget s2 k).
    { intros k. unfold u, sget. rewrite <- (set_store_same s2) at 1. rewrite Hc. reflexivity. }
    exists u. split; [apply surjective_pairing|]. split; [split|].
    + unfold same_rest. repeat split.
    + intros k. rewrite Eu. apply HS.
    + split; [intros k; rewrite Eu; apply Hw|intros k; unfold depth; rewrite Eu; lia].
Qed.

Lemma fresh_id_R2 : R2 fresh_id fresh_id.
Proof. apply R2_rest; reflexivity. Qed.

Lemma set_flags_R2 n : R2 (set_flags n) (set_flags n).
Proof. apply R2_rest; reflexivity. Qed.

Lemma ht_store_R2 h l : R2 (ht_store h l) (ht_store h l).
Proof. apply R2_rest; reflexivity. Qed.

Lemma ht_get_tab_R2 tb : R2 (ht_get_tab tb) (ht_get_tab tb).
Proof.
  unfold ht_get_tab. destruct tb; try apply R2_fail. destruct h; [|apply R2_fail].
  apply R2_rest; intros s; [intros st'|]; simpl; destruct (PositiveMap.find p (htabs s)); reflexivity.
Qed.

Lemma find_file_R2 n : R2 (find_file n) (find_file n).
Proof.
  apply R2_rest; intros s; [intros st'|]; unfold find_file; simpl;
    destruct (find _ (files s)); reflexivity.
Qed.

Lemma do_tick_R2 F id v : R2 (do_tick F id v) (do_tick F id v).
Proof.
  apply R2_rest; intros s; [intros st'|]; unfold do_tick; simpl;
    (destruct (fail_at s) as [k|]; [destruct (N.eqb k _)|]); reflexivity.
Qed.

Lemma note_defmacro_R2 x : R2 (note_defmacro x) (note_defmacro x).
Proof. apply R2_rest; reflexivity. Qed.

(* a pending binding is a temporary one, above every hidden entry *)
Lemma sym_unset_Sim x syms s0 :
  Sim (above (keys (x :: syms)) s0) (sym_unset x) (sym_unset x)
      (fun _ => above (keys syms) s0) (above [] s0).
Proof.
  unfold sym_unset, keys; simpl; fold (keys syms).
  destruct (key_of x) as [k|]; simpl; [|eapply Sim_pre; [apply above_nil|apply Sim_fail]].
  intros s1 r s1' H _. split.
  { destruct (b_unset (sget s1 k)); inversion H; subst; [apply gsuffix_sput|apply gsuffix_refl]. }
  intros s2 HS Hw [Hw0 HL] _. revert H. unfold b_unset.
  rewrite (SR_sget _ _ k HS), (insb_top k _ (Hw k)).
  pose proof (HL k) as Hk. rewrite cnt_cons_same in Hk. unfold depth at 2 in Hk.
  destruct (bitems (sget s2 k)) as [|x0 l] eqn:Eb; [simpl in Hk; lia|]. simpl in Hk.
  intros H. inversion H; subst; clear H.
  set (b := {| has_global := has_global (sget s2 k); bitems := l |}). exists (sput s2 k b).
  split; [reflexivity|]. split; [exact (SR_sput _ _ k b HS)|]. split; [|split; [assumption|]].
  - apply wf_sput; [assumption|]. intros Ht. destruct (Hw0 k Ht) as [L0 _]. destruct (Hw k Ht) as [_ Hg].
    unfold depth in *. simpl. split; [lia|assumption].
  - intros k'. specialize (HL k'). destruct (Pos.eq_dec k k') as [<-|N].
    + rewrite depth_sput_same. simpl. lia.
    + rewrite depth_sput_other by assumption. rewrite cnt_cons_other in HL by assumption. exact HL.
Qed.

Lemma unbind_all_Sim s0 : forall syms,
  Sim (above (keys syms) s0) (unbind_all syms) (unbind_all syms) (fun _ => above [] s0) (above [] s0).
Proof.
  induction syms as [|x syms IH]; simpl unbind_all.
  - apply (Sim_ret (fun _ => above [] s0)).
  - eapply Sim_bind; [apply sym_unset_Sim|]. intros ? _. apply IH.
Qed.

Lemma sym_set_scope_Sim x v bound s0 :
  Sim (above (keys bound) s0) (sym_set_scope x v) (sym_set_scope x v)
      (fun _ => above (keys (bound ++ [x])) s0) (above (keys bound) s0).
Proof.
  unfold sym_set_scope, with_key. destruct (key_of x) as [k|] eqn:Ek; [|apply Sim_fail].
  destruct (is_constant x); [apply Sim_fail|].
  apply (Sim_sput k (fun b => b_set_scope b v)); [intros b; apply b_scope_ins|].
  intros s [Hw0 HL]. split; [assumption|]. intros k'. specialize (HL k').
  rewrite keys_app, cnt_app, (keys_cons x [] k Ek). change (keys []) with (@nil key). destruct (Pos.eq_dec k k') as [<-|N].
  - rewrite depth_sput_same, cnt_cons_same. change (cnt [] k) with 0. unfold depth in *. simpl. lia.
  - rewrite depth_sput_other, cnt_cons_other by assumption. change (cnt [] k') with 0. lia.
Qed.

Lemma fail_with_Sim {A} s0 bound e Q :
  Sim (above (keys bound) s0) (bind (unbind_all bound) (fun _ => @fail A e))
      (bind (unbind_all bound) (fun _ => fail e)) Q (above [] s0).
Proof. eapply Sim_bind; [apply unbind_all_Sim|]. intros ? _. apply Sim_fail. Qed.

(* as EvalRel.scope_step *)
Lemma scope_step2 {B} s0 bound name (m1 m2 : M unit) (K1 K2 : M B) Q :
  Sim (above (keys bound) s0) m1 m2 (fun _ => above (keys (bound ++ [name])) s0) (above (keys bound) s0) ->
  Sim (above (keys (bound ++ [name])) s0) K1 K2 Q (above [] s0) ->
  Sim (above (keys bound) s0)
      (catch m1 (fun o => match o with
                          | Ok _ => K1
                          | Err e => bind (unbind_all bound) (fun _ => fail e)
                          | Panic n => panic n | Fuel => lift Fuel end))
      (catch m2 (fun o => match o with
                          | Ok _ => K2
                          | Err e => bind (unbind_all bound) (fun _ => fail e)
                          | Panic n => panic n | Fuel => lift Fuel end))
      Q (above [] s0).
Proof.
  intros Hm HK. eapply Sim_catch; [exact Hm|]. intros [u|e|n|] Hr _.
  - exact HK.
  - apply fail_with_Sim.
  - eapply Sim_pre; [apply above_nil|apply (Sim_lift Q (above [] s0) (Panic n))].
  - congruence.
Qed.

Lemma bind_all_Sim s0 : forall ps vs done,
  Sim (above (keys done) s0) (bind_all ps vs done) (bind_all ps vs done)
      (fun _ => above (keys (done ++ firstn (List.length vs) ps)) s0) (above [] s0).
Proof.
  induction ps as [|p ps IH]; intros vs done; destruct vs as [|v vs]; simpl;
    try (rewrite app_nil_r; apply (Sim_ret (fun _ => above (keys done) s0))).
  apply (scope_step2 s0 done p); [apply sym_set_scope_Sim|].
  replace (done ++ p :: firstn (List.length vs) ps) with ((done ++ [p]) ++ firstn (List.length vs) ps)
    by (rewrite <- app_assoc; reflexivity).
  apply IH.
Qed.

Lemma frame_R2 {A} syms vs (m1 m2 : M A) : List.length vs = List.length syms ->
  R2 m1 m2 -> R2 (frame syms m1 vs) (frame syms m2 vs).
Proof.
  intros Hl Hm. apply Sim_R2. intros s0. unfold frame.
  eapply Sim_bind; [apply (bind_all_Sim s0 syms vs [])|]. intros ? _.
  rewrite Hl, firstn_all. eapply Sim_finally; [apply R2_Sim, Hm|apply unbind_all_Sim].
Qed.

(* the frame of a call, [frame syms (eval_progn rec body) vs], written out *)
Definition bracket (rec : task -> M sx) (syms vs : list sx) (body : sx) : M sx :=
  bind (bind_all syms vs [])
       (fun _ => catch (eval_progn rec body) (fun r => bind (unbind_all syms) (fun _ => lift r))).

Lemma loop_bracket2 var v (body1 body2 : M sx) : R2 body1 body2 ->
  R2 (bind (sym_set_scope var v)
           (fun _ => catch body1 (fun r => bind (sym_unset var) (fun _ => lift r))))
     (bind (sym_set_scope var v)
           (fun _ => catch body2 (fun r => bind (sym_unset var) (fun _ => lift r)))).
Proof.
  intros Hb. apply Sim_R2. intros s0.
  eapply Sim_bind; [apply (sym_set_scope_Sim var v [])|]. intros ? _.
  eapply Sim_finally; [apply R2_Sim, Hb|apply (sym_unset_Sim var [])].
Qed.

(* [r2] is EvalRel's r0 for R2, with the database r2.  R2 lets a stack grow, not    *)
(* shrink: sym_unset and unbind_all, and with them bind_all and let_bind, have Sim *)
(* lemmas and no R2 lemma.  A goal [R2 (sym_unset ..) _] left over is false: R2_bind *)
(* has split a bracket of another shape than that of the first case; it goes       *)
(* through Sim_R2 by hand, as in do_let_R2.  Tactic and hints end with Section     *)
(* Hidden.                                                                         *)
Create HintDb r2.
Ltac r2 :=
  repeat first
    [ match goal with
      | |- R2 (bind (sym_set_scope _ _) (fun _ => catch _ _)) _ => apply loop_bracket2
      | |- R2 (ret _) _ => apply R2_ret
      | |- R2 (fail _) _ => apply R2_fail
      | |- R2 (panic _) _ => apply R2_panic
      | |- R2 (lift _) _ => apply R2_lift
      | |- R2 (bind _ _) _ => apply R2_bind; [ | intros ? ]
      | |- R2 (match ?x with _ => _ end) (match ?x with _ => _ end) =>
          destruct x
      | |- R2 (if ?x then _ else _) (if ?x then _ else _) => destruct x
      end
    | solve [auto with r2] ].

Hint Resolve sym_get_R2 sym_set_R2 sym_set_global_R2 sym_set_scope_R2 sym_set_unchecked_R2
  sym_boundp_R2 lex_bound_R2 fresh_id_R2 set_flags_R2 ht_store_R2 ht_get_tab_R2 find_file_R2
  do_tick_R2 note_defmacro_R2 : r2.

Lemma capture_symbol_R2 excl caps x : R2 (capture_symbol excl caps x) (capture_symbol excl caps x).
Proof. unfold capture_symbol. r2. Qed.
Hint Resolve capture_symbol_R2 : r2.

Lemma capture_walk_R2 excl : forall x caps, R2 (capture excl caps x) (capture excl caps x).
Proof.
  induction x; intros caps.
  9: { (* Cons *)
    apply (R2_ext _ _ _ _ (capture_cons_eq excl caps x1 x2) (capture_cons_eq excl caps x1 x2)). r2. }
  all: simpl; r2.
Qed.

Lemma capture_R2 excl : forall n x caps, sx_size x <= n -> R2 (capture excl caps x) (capture excl caps x).
Proof. intros n x caps _. apply capture_walk_R2. Qed.
Hint Resolve capture_walk_R2 : r2.

Lemma build_binding_R2 b prev : R2 (build_binding b prev) (build_binding b prev).
Proof. unfold build_binding. r2. Qed.
Hint Resolve build_binding_R2 : r2.
Lemma build_bindings_R2 : forall bs prev acc, R2 (build_bindings bs prev acc) (build_bindings bs prev acc).
Proof. induction bs as [|b bs IH]; intros; simpl; r2. Qed.
Hint Resolve build_bindings_R2 : r2.

Section Rel2.
Variable F : fops.
Variables rec1 rec2 : task -> M sx.
Variables load1 load2 : text -> M sx.
Hypothesis Hrec : forall t, R2 (rec1 t) (rec2 t).
Hypothesis Hload : forall t, R2 (load1 t) (load2 t).

Lemma ev_R2 x : R2 (ev rec1 x) (ev rec2 x). Proof. apply Hrec. Qed.
Lemma call_R2 e f a : R2 (call rec1 e f a) (call rec2 e f a). Proof. apply Hrec. Qed.
Lemma expand_R2 x : R2 (expand rec1 x) (expand rec2 x). Proof. apply Hrec. Qed.
Lemma rec_R2 t : R2 (rec1 t) (rec2 t). Proof. apply Hrec. Qed.
Hint Resolve ev_R2 call_R2 expand_R2 rec_R2 : r2.
Hint Extern 1 (R2 (load1 _) _) => apply Hload : r2.

Lemma eval_progn_l_R2 : forall l last, R2 (eval_progn_l rec1 l last) (eval_progn_l rec2 l last).
Proof. induction l as [|x l IH]; intros; simpl; r2. Qed.
Lemma eval_progn_R2 b : R2 (eval_progn rec1 b) (eval_progn rec2 b).
Proof. apply eval_progn_l_R2. Qed.
Lemma eval_each_R2 : forall l, R2 (eval_each rec1 l) (eval_each rec2 l).
Proof. induction l as [|x l IH]; simpl; r2. Qed.
Hint Resolve eval_progn_l_R2 eval_progn_R2 eval_each_R2 : r2.

Lemma arg_req_R2 e a : R2 (arg_req rec1 e a) (arg_req rec2 e a).
Proof. unfold arg_req. r2. Qed.
Lemma arg_opt_R2 e a : R2 (arg_opt rec1 e a) (arg_opt rec2 e a).
Proof. unfold arg_opt. r2. Qed.
Lemma arg_rest_R2 e a : R2 (arg_rest rec1 e a) (arg_rest rec2 e a).
Proof. unfold arg_rest. r2. Qed.
Lemma zip_args_R2 e : forall ps args, R2 (zip_args rec1 e ps args) (zip_args rec2 e ps args).
Proof. induction ps as [|p ps IH]; intros args; simpl; r2. Qed.
Hint Resolve arg_req_R2 arg_opt_R2 arg_rest_R2 zip_args_R2 : r2.

Lemma enter_R2 e ps (m1 m2 : M sx) args :
  R2 m1 m2 -> R2 (enter rec1 e ps m1 args) (enter rec2 e ps m2 args).
Proof.
  intros Hm. unfold enter. apply R2_bind; [r2|]. intros pl. apply Sim_R2. intros s0.
  eapply Sim_bind; [apply R2_Sim, zip_args_R2|]. intros [vs rest] (s & s' & Hz).
  destruct rest; [|apply Sim_fail].
  apply R2_Sim, frame_R2; [|exact Hm]. rewrite map_length. eapply zip_args_len; eassumption.
Qed.

Lemma eval_function_R2 e ps body args :
  R2 (eval_function rec1 e ps body args) (eval_function rec2 e ps body args).
Proof. rewrite !eval_function_enter. apply enter_R2, eval_progn_R2. Qed.
Hint Resolve eval_function_R2 : r2.

Lemma eval_bq_spine_R2 x :
  R2 (eval_bq rec1 x) (eval_bq rec2 x) /\ forall acc, R2 (bq_spine rec1 x acc) (bq_spine rec2 x acc).
Proof.
  induction x; try destruct IHx as [IHx _].
  9: { (* Cons *)
    destruct IHx1 as [IHa _], IHx2 as [_ IHd].
    assert (HS : forall acc, R2 (bq_spine rec1 (Cons x1 x2) acc) (bq_spine rec2 (Cons x1 x2) acc))
      by (intros acc; cbn [bq_spine]; r2).
    split; [rewrite !eval_bq_cons; apply HS|exact HS]. }
  all: split; [simpl; r2|intros acc; simpl; r2].
Qed.

Lemma eval_bq_R2 : forall n x, sx_size x <= n -> R2 (eval_bq rec1 x) (eval_bq rec2 x).
Proof. intros n x _. apply eval_bq_spine_R2. Qed.
Hint Extern 1 (R2 (eval_bq _ _) _) => apply eval_bq_spine_R2 : r2.

Lemma merge_fuel_R2 pred : forall fuel l r acc,
  R2 (merge_fuel rec1 fuel pred l r acc) (merge_fuel rec2 fuel pred l r acc).
Proof. induction fuel as [|fuel IH]; intros; simpl; r2. Qed.
Hint Resolve merge_fuel_R2 : r2.
Lemma msort_R2 pred : forall fuel l, R2 (msort rec1 fuel pred l) (msort rec2 fuel pred l).
Proof. induction fuel as [|fuel IH]; intros; simpl; r2. Qed.

Lemma assoc_find_R2 (t1 t2 : sx -> M bool) :
  (forall k, R2 (t1 k) (t2 k)) -> forall al, R2 (assoc_find t1 al) (assoc_find t2 al).
Proof. intros Ht. induction al; simpl; r2. Qed.
Lemma assoc_R2 k al tf : R2 (assoc F rec1 k al tf) (assoc F rec2 k al tf).
Proof. unfold assoc. r2; apply assoc_find_R2; intros; r2. Qed.

Lemma reduce_rest_R2 op : forall rest acc, R2 (reduce_rest rec1 op acc rest) (reduce_rest rec2 op acc rest).
Proof. induction rest; intros acc; simpl; r2. Qed.
Hint Resolve reduce_rest_R2 : r2.
Lemma reduce_with_R2 op args : R2 (reduce_with rec1 op args) (reduce_with rec2 op args).
Proof. unfold reduce_with. r2. Qed.

Lemma predicate_R2 args (p : sx -> M bool) : (forall v, R2 (p v) (p v)) ->
  R2 (predicate rec1 args p) (predicate rec2 args p).
Proof. intros Hp. unfold predicate. r2. Qed.
Hint Extern 1 (R2 (predicate _ _ _) _) => apply predicate_R2; intros; r2 : r2.
Lemma string_cmp_R2 args p : R2 (string_cmp rec1 args p) (string_cmp rec2 args p).
Proof. unfold string_cmp. r2. Qed.

Lemma compare_chain_R2 c : forall l prev holds,
  R2 (compare_chain F rec1 c l prev holds) (compare_chain F rec2 c l prev holds).
Proof. induction l as [|x l IH]; intros; simpl; r2. Qed.
Lemma and_l_R2 : forall l last, R2 (and_l rec1 l last) (and_l rec2 l last).
Proof. induction l as [|x l IH]; intros; simpl; r2. Qed.
Lemma or_l_R2 : forall l, R2 (or_l rec1 l) (or_l rec2 l).
Proof. induction l as [|x l IH]; intros; simpl; r2. Qed.
Lemma cond_l_R2 : forall l, R2 (cond_l rec1 l) (cond_l rec2 l).
Proof. induction l as [|x l IH]; intros; simpl; r2. Qed.
Lemma map_l_R2 fn : forall l, R2 (map_l rec1 fn l) (map_l rec2 fn l).
Proof. induction l as [|x l IH]; intros; simpl; r2. Qed.
Lemma filter_l_R2 fn : forall l, R2 (filter_l rec1 fn l) (filter_l rec2 fn l).
Proof. induction l as [|x l IH]; intros; simpl; r2. Qed.
Lemma reduce_l_R2 fn : forall l acc, R2 (reduce_l rec1 fn l acc) (reduce_l rec2 fn l acc).
Proof. induction l as [|x l IH]; intros; simpl; r2. Qed.
Lemma find_l_R2 fn : forall l, R2 (find_l rec1 fn l) (find_l rec2 fn l).
Proof. induction l as [|x l IH]; intros; simpl; r2. Qed.
Hint Resolve msort_R2 assoc_R2 reduce_with_R2 string_cmp_R2 compare_chain_R2
  and_l_R2 or_l_R2 cond_l_R2 map_l_R2 filter_l_R2 reduce_l_R2 find_l_R2 : r2.

Lemma ev_bind_Sim s0 bound name value :
  Sim (above (keys bound) s0)
      (bind (ev rec1 value) (fun val => sym_set_scope name val))
      (bind (ev rec2 value) (fun val => sym_set_scope name val))
      (fun _ => above (keys (bound ++ [name])) s0) (above (keys bound) s0).
Proof. eapply Sim_bind; [apply R2_Sim, ev_R2|]. intros val _. apply sym_set_scope_Sim. Qed.

Lemma let_bind_Sim s0 : forall vars bound,
  Sim (above (keys bound) s0) (let_bind rec1 vars bound) (let_bind rec2 vars bound)
      (fun bound' => above (keys bound') s0) (above [] s0).
Proof.
  induction vars as [|v vars IH]; intros bound; cbn [let_bind];
    [apply (Sim_ret (fun bound' => above (keys bound') s0))|].
  destruct (symbolp v); [apply (scope_step2 s0 bound v); [apply sym_set_scope_Sim|apply IH]|].
  destruct v; try apply fail_with_Sim. destruct v2; try apply fail_with_Sim.
  - destruct (null v1); [apply fail_with_Sim|].
    apply (scope_step2 s0 bound v1); [apply ev_bind_Sim|apply IH].
  - destruct (null v1); [apply fail_with_Sim|]. destruct (negb (null v2_2)); [apply fail_with_Sim|].
    apply (scope_step2 s0 bound v1); [apply ev_bind_Sim|apply IH].
Qed.

Lemma do_let_R2 args : R2 (do_let rec1 args) (do_let rec2 args).
Proof.
  unfold do_let. apply R2_bind; [r2|]. intros [varlist rest].
  destruct (negb (listp rest)); [r2|]. apply Sim_R2. intros s0.
  eapply Sim_bind; [apply (let_bind_Sim s0 (items varlist) [])|]. intros bound _.
  eapply Sim_finally; [apply R2_Sim, eval_progn_R2|apply unbind_all_Sim].
Qed.
Hint Resolve do_let_R2 : r2.

Lemma dolist_loop_R2 var body : forall n lst,
  R2 (dolist_loop rec1 n var lst body) (dolist_loop rec2 n var lst body).
Proof. induction n as [|n IH]; intros lst; simpl; r2. Qed.
Hint Resolve dolist_loop_R2 : r2.

Lemma apply_pmac_R2 m args : R2 (apply_pmac rec1 m args) (apply_pmac rec2 m args).
Proof. destruct m; cbn [apply_pmac]; r2. Qed.

Lemma apply_prim_R2 p args :
  R2 (apply_prim F rec1 load1 p args) (apply_prim F rec2 load2 p args).
Proof.
  destruct p; cbn [apply_prim]; r2.
  (* left, as in EvalRel.apply_prim_R: the loop over the divisors of / *)
  match goal with |- R2 (_ ?acc ?ds) _ => revert acc; induction ds as [|d ds IHd]; intros acc end;
    cbn; [r2|].
  apply R2_bind; [r2|]. intros acc'. apply IHd.
Qed.
Hint Resolve apply_pmac_R2 apply_prim_R2 : r2.

Lemma expand_spine_R2 : forall d a acc,
  R2 (expand_spine rec1 a d acc) (expand_spine rec2 a d acc).
Proof.
  induction d; intros a acc; cbn [expand_spine];
    (apply R2_bind; [r2|intros a']); solve [r2].
Qed.

Lemma step_R2 t : R2 (step F rec1 load1 t) (step F rec2 load2 t).
Proof.
  destruct t; cbn [step]; [r2..|].
  (* TExpand *)
  destruct x; try solve [r2].
  apply R2_bind.
  { apply R2_catch; [r2|]. intros r0 _. destruct r0; r2. }
  intros value. apply R2_bind; [r2|]. intros x.
  destruct x; try solve [r2]. apply expand_spine_R2.
Qed.

Lemma readtime_all_of_R2 l :
  Forall (fun x => R2 (readtime rec1 x) (readtime rec2 x)) l ->
  R2 (readtime_all rec1 l) (readtime_all rec2 l).
Proof. induction 1; simpl; r2. Qed.

Lemma readtime_R2 x : R2 (readtime rec1 x) (readtime rec2 x).
Proof.
  induction x as [xs tl sp IHxs IHtl| | | | |x Hx] using ax_ind';
    try solve [cbn [readtime]; r2]; [|destruct x; solve [contradiction|cbn [readtime]; r2]].
  rewrite !readtime_list. apply R2_bind; [apply readtime_all_of_R2, IHxs|intros elems].
  apply R2_bind; [|intros; r2]. destruct tl; [|r2].
  apply R2_bind; [apply IHtl; reflexivity|intros; r2].
Qed.

Lemma readtime_all_R2 l : R2 (readtime_all rec1 l) (readtime_all rec2 l).
Proof. apply readtime_all_of_R2, Forall_forall. intros x _. apply readtime_R2. Qed.

Lemma parse_body_R2 t : R2 (parse_body F rec1 t) (parse_body F rec2 t).
Proof.
  apply (R2_ext _ _ _ _ (parse_body_eq F rec1 t) (parse_body_eq F rec2 t)).
  apply R2_bind; [apply R2_rest; reflexivity|]. intros forms.
  apply R2_bind; [apply readtime_all_R2|intros; r2].
Qed.

Lemma run_body_R2 t : R2 (run_body F rec1 t) (run_body F rec2 t).
Proof. unfold run_body. apply R2_bind; [apply parse_body_R2|]. intros. r2. Qed.

End Rel2.

(* the fuelled interpreter is insensitive to hidden entries *)
Theorem run_R2 F : forall f t, R2 (run F f t) (run F f t).
Proof.
  induction f as [|f IH]; intros t.
  - split.
    + intros s r s' H Hr. inversion H; subst. congruence.
    + intros s1 s2 r s1' _ _ H Hr. inversion H; subst. congruence.
  - rewrite run_S. apply step_R2; [exact IH|]. intros txt. apply run_body_R2. exact IH.
Qed.

End Hidden.
