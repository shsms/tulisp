(* C05: what the capture walk of `lambda` does with one symbol occurrence,   *)
(* and the cells it creates.                                                  *)
From TL Require Import Base.Base Model.Reader Model.Printer Model.Store Model.Eval.
Local Open Scope list_scope.

(* not capturable (not locally bound at creation, or a parameter of the lambda): left alone *)
Lemma capture_symbol_skip excl caps x s b :
  lex_bound x s = (Ok b, s) -> b && negb (in_excl excl x) = false ->
  capture_symbol excl caps x s = (Ok (x, caps), s).
Proof.
  intros H Hb. unfold capture_symbol, bind. rewrite H.
  destruct b; [|reflexivity]. apply negb_false_iff in Hb. rewrite Hb. reflexivity.
Qed.

Theorem capture_symbol_not_local excl caps x s :
  lex_bound x s = (Ok false, s) -> capture_symbol excl caps x s = (Ok (x, caps), s).
Proof. intros H. apply (capture_symbol_skip _ _ _ _ _ H). reflexivity. Qed.

Theorem capture_symbol_parameter excl caps x s :
  lex_bound x s = (Ok true, s) -> in_excl excl x = true ->
  capture_symbol excl caps x s = (Ok (x, caps), s).
Proof. intros H He. apply (capture_symbol_skip _ _ _ _ _ H). rewrite He. reflexivity. Qed.

(* locally bound means bound: there is a value to put into the cell *)
Lemma lex_bound_has_value b : b_lex_bound b = true -> bitems b <> [].
Proof. unfold b_lex_bound. intros H E. rewrite E in H. destruct (has_global b); discriminate. Qed.

(* already captured in this lambda: the SAME cell again *)
Theorem capture_symbol_again excl caps x c s :
  lex_bound x s = (Ok true, s) -> in_excl excl x = false -> find_cap caps x = Some c ->
  capture_symbol excl caps x s = (Ok (c, caps), s).
Proof.
  intros H He Hf. unfold capture_symbol, bind. rewrite H. simpl. rewrite He, Hf. reflexivity.
Qed.

Definition bump_id (s : st) : st :=
  {| store := store s; next_id := Pos.succ (next_id s); log := log s; steps := steps s;
     fail_at := fail_at s; htabs := htabs s; flags := flags s; files := files s;
     nfiles := nfiles s; mlog := mlog s; glog := glog s |}.

(* the cell made for the occurrence x: its name, the serial, rooted where x is *)
Definition cell_for (x : sx) (id : positive) : sx :=
  Cell (match sym_name x with Some n => n | None => [] end) id (cell_root x).

(* first occurrence: a new cell with a fresh serial, holding the value the variable has NOW *)
Lemma capture_symbol_fresh excl caps x s v :
  lex_bound x s = (Ok true, s) -> in_excl excl x = false -> find_cap caps x = None ->
  sym_get x s = (Ok v, s) ->
  let c := cell_for x (next_id s) in
  let s1 := bump_id s in
  capture_symbol excl caps x s =
  (Ok (c, caps ++ [(x, c)]),
   sput s1 (key_of_id (next_id s)) (b_set (sget s1 (key_of_id (next_id s))) v)).
Proof.
  intros Hl He Hf Hv. unfold capture_symbol, bind. rewrite Hl. simpl.
  rewrite He, Hf, Hv. reflexivity.
Qed.

Theorem capture_symbol_new excl caps x s k v rest n :
  symbolp x = true -> key_of x = Some k -> keywordp x = false -> sym_name x = Some n ->
  lex_bound x s = (Ok true, s) -> in_excl excl x = false -> find_cap caps x = None ->
  bitems (sget s k) = v :: rest ->
  let c := Cell n (next_id s) (cell_root x) in
  let s1 := bump_id s in
  capture_symbol excl caps x s =
  (Ok (c, caps ++ [(x, c)]),
   sput s1 (key_of_id (next_id s)) (b_set (sget s1 (key_of_id (next_id s))) v)).
Proof.
  intros _ Hk Hkw Hn Hl He Hf Hb.
  rewrite (capture_symbol_fresh excl caps x s v Hl He Hf).
  - unfold cell_for. rewrite Hn. reflexivity.
  - unfold sym_get. rewrite Hk, Hkw, Hb. reflexivity.
Qed.

(* a cell reads its own slot, whatever the variable of the same name is bound to in the caller *)
Theorem cell_read_independent n id root s k b :
  k <> key_of_id id ->
  fst (sym_get (Cell n id root) (sput s k b)) = fst (sym_get (Cell n id root) s).
Proof.
  intros Hk. unfold sym_get. simpl. rewrite sget_sput_other by assumption.
  destruct (bitems (sget s (key_of_id id))); reflexivity.
Qed.

Theorem name_key_not_cell_key nm id : key_of_name nm <> key_of_id id.
Proof. discriminate. Qed.

Theorem cell_write_read n id root v s :
  exists s', sym_set (Cell n id root) v s = (Ok tt, s') /\
             fst (sym_get (Cell n id root) s') = Ok v /\
             forall k, k <> key_of_id id -> sget s' k = sget s k.
Proof.
  eexists. split; [reflexivity|]. split.
  - unfold sym_get. simpl. rewrite sget_sput_same. unfold b_set.
    destruct (bitems (sget s (key_of_id id))); reflexivity.
  - intros k Hk. apply sget_sput_other. congruence.
Qed.

Theorem cell_eq_its_symbol n id nm : sym_eq (Cell n id (key_of_name nm)) (Sym nm) = true.
Proof. apply Pos.eqb_refl. Qed.
