(* The reader is total: no panic site is reachable, the fuel given by      *)
(* read_ax always suffices, and the only error is a parse error.           *)
From TL Require Import Base.Base Model.Reader Proofs.Positions.
Local Open Scope nat_scope.

Lemma advance_eq c l p : exists l1 p1, advance c l p = (l1, p1) /\ (1 <= p1)%N.
Proof. unfold advance. destruct (N.eqb c c_nl); do 2 eexists; (split; [reflexivity|lia]). Qed.

Lemma usub_ok site a b : (b <= a)%N -> usub site a b = Ok (a - b)%N.
Proof. intros H. unfold usub. destruct (N.ltb a b) eqn:E; auto. apply N.ltb_lt in E. lia. Qed.

(* what the parser may return: a value satisfying [P], or a parse error; the  *)
(* hand-written binds of the model propagate it                               *)
Definition parsed {A} (P : A -> Prop) (r : res A) : Prop :=
  match r with Ok a => P a | Err EParse => True | _ => False end.

Lemma parsed_bind {A B} (P : A -> Prop) (Q : B -> Prop) (r : res A) (k : A -> res B) :
  parsed P r -> (forall a, P a -> parsed Q (k a)) ->
  parsed Q match r with Ok a => k a | Err e => Err e | Panic s => Panic s | Fuel => Fuel end.
Proof. destruct r as [a|[]| |]; auto; contradiction. Qed.

Lemma parsed_impl {A} (P Q : A -> Prop) (r : res A) :
  (forall a, P a -> Q a) -> parsed P r -> parsed Q r.
Proof. destruct r as [a|[]| |]; simpl; auto. Qed.

Lemma parsed_total {A} (P : A -> Prop) (r : res A) :
  parsed P r -> (exists a, r = Ok a) \/ r = Err EParse.
Proof. destruct r as [a|[]| |]; eauto; contradiction. Qed.

(* the step ends the input or leaves fewer than [n] characters; never Err, Panic or Fuel *)
Definition good_step (n : nat) (r : res (option (tok * span * text * N * N))) : Prop :=
  match r with
  | Ok None => True
  | Ok (Some (_, _, rest, _, _)) => List.length rest < n
  | _ => False
  end.

Lemma good_step_mono n m r : n <= m -> good_step n r -> good_step m r.
Proof.
  intros H. destruct r as [[[[[[t sp] rest] l] p]|]| | |]; simpl; auto. lia.
Qed.

(* The columns handed to usub come from advance, so they are at least 1: no    *)
(* lemma below constrains the starting position.  [n] bounds the input: an     *)
(* escape takes two characters, so read_string does not recurse on the tail.   *)
Lemma read_string_good n : forall cs line pos sl sc acc,
  List.length cs <= n -> good_step (S n) (read_string cs line pos sl sc acc).
Proof.
  induction n as [|n IH]; intros [|c r] line pos sl sc acc Hn; simpl in Hn; try lia;
    cbn [read_string]; try (simpl; lia).
  assert (Hrec : forall cs l p a, List.length cs <= n ->
                 good_step (S (S n)) (read_string cs l p sl sc a))
    by (intros; eapply good_step_mono; [|apply IH]; auto).
  destruct (advance c line pos) as [l1 p1].
  destruct (N.eqb c c_bslash).
  - destruct r as [|e r2]; [exact I|]. simpl in Hn.
    destruct (advance_eq e l1 p1) as (l2 & p2 & -> & Hp2).
    destruct (N.eqb e c_n); [apply Hrec; lia|]. destruct (N.eqb e c_t); [apply Hrec; lia|].
    destruct (N.eqb e c_bslash); [apply Hrec; lia|]. destruct (N.eqb e c_dq); [apply Hrec; lia|].
    rewrite usub_ok by lia. simpl. lia.
  - destruct (N.eqb c c_dq); [simpl; lia|apply Hrec; lia].
Qed.

Lemma skip_comment_len cs : forall line pos r l p,
  skip_comment cs line pos = Some (r, l, p) -> List.length r < List.length cs.
Proof.
  induction cs as [|c cs IH]; intros line pos r l p H; simpl in H; [discriminate|].
  destruct (advance c line pos) as [l1 p1]. destruct (N.eqb c c_nl).
  - inversion H. simpl. lia.
  - apply IH in H. simpl. lia.
Qed.

Section WithFloat.
Variable F : fops.

Lemma read_num_ident_good c r line pos : ident_stop c = false ->
  good_step (S (List.length r)) (Ok (Some (read_num_ident F (c :: r) line pos))).
Proof.
  intros Hs. unfold read_num_ident.
  destruct (scan_ident_step c r line pos true true false [] Hs) as (i1 & f1 & ->).
  destruct (advance c line pos) as [l1 p1].
  destruct (scan_ident r l1 p1 false i1 f1 [c]) as [[[[[out i] f] rest] l] p] eqn:E.
  apply scan_ident_walk in E as (k & -> & _).
  assert (Hl : List.length rest < S (List.length (k ++ rest))) by (rewrite app_length; lia).
  destruct (i && negb (text_eqb out [c_minus]));
    [destruct (parse_i64 out)|destruct f; [destruct (f_of_dec F out)|]]; exact Hl.
Qed.

Lemma tok1_ok t r l p : (1 <= p)%N ->
  tok1 t r l p = Ok (Some (t, Build_span l (p - 1) l p, r, l, p)).
Proof. intros H. unfold tok1. rewrite usub_ok by lia. reflexivity. Qed.

Lemma tok2_ok t r l p : (2 <= p)%N ->
  tok2 t r l p = Ok (Some (t, Build_span l (p - 2) l p, r, l, p)).
Proof. intros H. unfold tok2. rewrite usub_ok by lia. reflexivity. Qed.

Lemma tok1_good t r l1 p1 n : (1 <= p1)%N -> List.length r < n -> good_step n (tok1 t r l1 p1).
Proof. intros Hp Hn. rewrite tok1_ok by exact Hp. exact Hn. Qed.

(* the second character of a two-character token is not a line end *)
Lemma tok2_good t c2 r l1 p1 n : N.eqb c2 c_nl = false -> (1 <= p1)%N -> List.length r < n ->
  good_step n (let '(l2, p2) := advance c2 l1 p1 in tok2 t r l2 p2).
Proof. intros Hc Hp Hn. unfold advance. rewrite Hc, tok2_ok by lia. exact Hn. Qed.

Lemma next_tok_good fuel : forall cs line pos,
  List.length cs < fuel -> good_step (List.length cs) (next_tok F fuel cs line pos).
Proof.
  induction fuel as [|fuel IH]; intros [|c r] line pos Hf; simpl in Hf; try lia; [exact I|].
  cbn [next_tok List.length].
  destruct (advance_eq c line pos) as (l1 & p1 & -> & Hp1).
  assert (Hrec : forall r' l' p', List.length r' <= List.length r ->
                 good_step (S (List.length r)) (next_tok F fuel r' l' p'))
    by (intros; eapply good_step_mono; [|apply IH]; lia).
  destruct (N.eqb c c_nl || N.eqb c c_sp || N.eqb c c_cr || N.eqb c c_tab) eqn:Hws;
    [apply Hrec; auto|].
  destruct (N.eqb c c_lp); [apply tok1_good; auto|].
  destruct (N.eqb c c_rp) eqn:Hrp; [apply tok1_good; auto|].
  destruct (N.eqb c c_quote); [apply tok1_good; auto|].
  destruct (N.eqb c c_btick); [apply tok1_good; auto|].
  destruct (N.eqb c c_dot); [apply tok1_good; auto|].
  destruct (N.eqb c c_sharp).
  { destruct r as [|c2 r2]; [exact I|].
    destruct (N.eqb_spec c2 c_quote) as [->|_]; [apply tok2_good|apply tok1_good]; auto. }
  destruct (N.eqb c c_comma).
  { destruct r as [|c2 r2]; [exact I|].
    destruct (N.eqb_spec c2 c_at) as [->|_]; [apply tok2_good|apply tok1_good]; auto. }
  destruct (N.eqb c c_dq); [apply (read_string_good (List.length r)); auto|].
  destruct (N.eqb c c_semi).
  { destruct (skip_comment r l1 p1) as [[[r2 l2] p2]|] eqn:Es; [|exact I].
    apply skip_comment_len in Es. apply Hrec. lia. }
  (* white space and the closing parenthesis are the delimiters of ident_stop *)
  apply read_num_ident_good. unfold ident_stop. rewrite Hrp.
  rewrite !orb_false_iff in Hws. destruct Hws as [[[-> ->] ->] ->]. reflexivity.
Qed.

Lemma tokenize_ok fuel : forall cs line pos,
  List.length cs < fuel -> exists ts, tokenize F fuel cs line pos = Ok ts.
Proof.
  induction fuel as [|fuel IH]; intros cs line pos Hf; [lia|].
  cbn [tokenize].
  pose proof (next_tok_good (S (List.length cs)) cs line pos (Nat.lt_succ_diag_r _)) as G.
  destruct (next_tok F (S (List.length cs)) cs line pos) as [[[[[[t sp] rest] l] p]|]| | |];
    simpl in G; try contradiction; [|eauto].
  destruct (IH rest l p) as [ts ->]; [lia|]. eauto.
Qed.

Variable fl : rflags.

Definition pv_good (ts : toks) : res (option (ax * toks)) -> Prop :=
  parsed (fun o => match o with
                   | None => ts = []
                   | Some (_, rest) => List.length rest < List.length ts
                   end).

Definition pl_good (ts : toks) : res (ax * toks) -> Prop :=
  parsed (fun '(_, rest) => List.length rest < List.length ts).

(* the steps of the parser that go on into parse_list or parse_value; what it *)
(* does on the other tokens is found by evaluation                            *)
Lemma parse_value_open fuel sp r :
  parse_value fl (S fuel) ((TOpen, sp) :: r) =
  match parse_list fl fuel r sp [] with
  | Ok (x, r2) => Ok (Some (x, r2))
  | Err e => Err e | Panic s => Panic s | Fuel => Fuel
  end.
Proof. reflexivity. Qed.

Lemma parse_list_dot fuel sp r start acc :
  parse_list fl (S fuel) ((TDot, sp) :: r) start acc =
  match parse_value fl fuel r with
  | Ok (Some (x, (TClose, esp) :: r3)) =>
      Ok (AList (rev acc) (Some x) (Build_span (s_l start) (s_c start) (e_l esp) (e_c esp)), r3)
  | Ok (Some _) | Ok None => Err EParse
  | Err e => Err e | Panic s => Panic s | Fuel => Fuel
  end.
Proof. reflexivity. Qed.

Lemma parse_list_elem fuel t sp r start acc : t <> TClose -> t <> TDot ->
  parse_list fl (S fuel) ((t, sp) :: r) start acc =
  match parse_value fl fuel ((t, sp) :: r) with
  | Ok (Some (x, r2)) => parse_list fl fuel r2 start (x :: acc)
  | Ok None => Panic 10%N
  | Err e => Err e | Panic s => Panic s | Fuel => Fuel
  end.
Proof. intros H1 H2. destruct t; try reflexivity; congruence. Qed.

Lemma parse_good fuel :
  (forall ts, 2 * List.length ts < fuel -> pv_good ts (parse_value fl fuel ts)) /\
  (forall ts start acc,
     2 * List.length ts + 1 < fuel -> pl_good ts (parse_list fl fuel ts start acc)).
Proof.
  induction fuel as [|fuel [IHv IHl]]; [split; intros; lia|].
  split.
  - intros [|[t sp] r] Hf; [reflexivity|]. simpl List.length in *.
    assert (Hw : forall mk, pv_good ((t, sp) :: r)
              (match parse_value fl fuel r with
               | Ok (Some (x, r2)) => Ok (Some (mk x sp, r2))
               | Ok None => Err EParse
               | Err e => Err e | Panic s => Panic s | Fuel => Fuel end)).
    { intros mk. eapply parsed_bind; [apply IHv; lia|].
      intros [[x r2]|] H; simpl in *; [lia|exact I]. }
    destruct t; try apply Hw; try exact I; try (simpl; lia).
    rewrite parse_value_open. eapply parsed_bind; [apply IHl; lia|].
    intros [x r2] H. simpl in *. lia.
  - intros [|[t sp] r] start acc Hf; [exact I|]. simpl List.length in *.
    assert (Helem : t <> TClose -> t <> TDot ->
              pl_good ((t, sp) :: r) (parse_list fl (S fuel) ((t, sp) :: r) start acc)).
    { intros H1 H2. rewrite parse_list_elem by assumption.
      eapply parsed_bind; [apply IHv; simpl; lia|].
      intros [[x r2]|] H; simpl in H; [|discriminate].
      eapply parsed_impl; [|apply IHl; lia]. intros [y r3]. simpl. lia. }
    destruct t; try (apply Helem; discriminate).
    + simpl. lia.
    + rewrite parse_list_dot. eapply parsed_bind; [apply IHv; lia|].
      intros [[x r2]|] H; [|exact I].
      destruct r2 as [|[[] esp] r3]; try exact I. simpl in *. lia.
Qed.

Lemma parse_all_ok fuel : forall ts acc,
  List.length ts < fuel -> parsed (fun _ => True) (parse_all fl fuel ts acc).
Proof.
  induction fuel as [|fuel IH]; intros ts acc Hf; [lia|].
  cbn [parse_all]. eapply parsed_bind; [apply (proj1 (parse_good _)); lia|].
  intros [[x r]|] H; [apply IH; lia|exact I].
Qed.

Theorem read_ax_total t :
  (exists forms, read_ax F fl t = Ok forms) \/ read_ax F fl t = Err EParse.
Proof.
  unfold read_ax. destruct (tokenize_ok (S (List.length t)) t 1%N 1%N) as [ts ->]; [lia|].
  eapply parsed_total, parse_all_ok. lia.
Qed.

End WithFloat.
