(* C07 / C11 at heap level: a list built by pushing and appending onto a fresh *)
(* accumulator (the way eval_back_quote, mapcar, seq-filter, append, list! build *)
(* their results) writes no cell that existed before the construction began:     *)
(* templates, spliced lists and arguments read the same afterwards, and the      *)
(* spine of the result consists of new cells only.                                *)
From TL Require Import Base.Base Model.Reader Model.Printer Model.Api.
From TL Require Import Proofs.Heap.
Local Open Scope positive_scope.
Local Open Scope list_scope.

(* no entry beyond the allocation pointer *)
Definition wfh (h : heap) : Prop :=
  forall c, hnext h <= c -> PositiveMap.find c (cells h) = None.

Lemma wfh_extends h h' : wfh h -> extends h h' -> wfh h'.
Proof. intros W [_ N A] c Hc. rewrite (A c Hc). apply W. lia. Qed.
Lemma wfh_alloc h v : wfh h -> wfh (fst (halloc h v)).
Proof. intros W. apply (wfh_extends h), extends_alloc. exact W. Qed.
Lemma wfh_set h i v : wfh h -> i < hnext h -> wfh (hset h i v).
Proof.
  intros H Hi c Hc. unfold hset in *; simpl in *. rewrite PositiveMap.gso by lia. apply H. exact Hc.
Qed.
Lemma wfh_nonnil h c : wfh h -> hget h c <> HNil -> c < hnext h.
Proof.
  intros H Hn. destruct (Pos.ltb_spec c (hnext h)) as [L|L]; [exact L|].
  exfalso. apply Hn. unfold hget. rewrite (H c L). reflexivity.
Qed.

(* the cdr chain from i, looked at to depth f: each cons cell, and the empty-list object *)
(* if it ends in one, was allocated at or after n0.  FC asks this at every depth: it is a *)
(* greatest fixed point (a cyclic chain has it).  What a changed heap preserves is proved *)
(* by induction on the depth, so stated of fc.                                            *)
Fixpoint fc (f : nat) (h : heap) (n0 i : positive) : Prop :=
  match f with
  | O => True
  | S f' => match hget h i with
            | HCons _ d => n0 <= i < hnext h /\ fc f' h n0 d
            | HNil => n0 <= i < hnext h
            | _ => True
            end
  end.
Definition FC (h : heap) (n0 i : positive) : Prop := forall f, fc f h n0 i.

Lemma FC_intro h n0 i :
  match hget h i with
  | HCons _ d => n0 <= i < hnext h /\ FC h n0 d
  | HNil => n0 <= i < hnext h
  | _ => True
  end -> FC h n0 i.
Proof.
  intros H [|f]; [exact I|]. cbn [fc]. destruct (hget h i); try exact H.
  split; [apply H|apply H].
Qed.
Lemma FC_cons h n0 i a d : hget h i = HCons a d -> FC h n0 i -> n0 <= i < hnext h /\ FC h n0 d.
Proof.
  intros E H. split.
  - specialize (H 1%nat). simpl in H. rewrite E in H. apply H.
  - intros f. specialize (H (S f)). simpl in H. rewrite E in H. apply H.
Qed.
Lemma FC_nil h n0 i : hget h i = HNil -> FC h n0 i -> n0 <= i < hnext h.
Proof. intros E H. specialize (H 1%nat). simpl in H. rewrite E in H. exact H. Qed.

Lemma FC_cdrs h n0 i t : cdrs h i t -> FC h n0 i -> FC h n0 t.
Proof. induction 1 as [|i a d t E _ IH]; intros F; [exact F|]. apply IH, (FC_cons _ _ _ _ _ E F). Qed.

Lemma fc_frame h h' n0 : wfh h -> extends h h' -> forall f i, fc f h n0 i -> fc f h' n0 i.
Proof.
  intros W [S N _]. induction f as [|f IH]; intros i H; [exact I|].
  simpl in *. destruct (Pos.ltb_spec i (hnext h)) as [L|L].
  - rewrite (S i L). destruct (hget h i) eqn:E; try exact I; [lia|].
    destruct H as [B Hd]. split; [lia|]. apply IH. exact Hd.
  - assert (E : hget h i = HNil) by (unfold hget; rewrite (W i L); reflexivity).
    rewrite E in H. lia.
Qed.

Lemma fc_weaken h n0 m : n0 <= m -> forall f i, fc f h m i -> fc f h n0 i.
Proof.
  intros Hm. induction f as [|f IH]; intros i H; [exact I|]. simpl in *.
  destruct (hget h i); try exact I; [lia|]. destruct H as [B Hd]. split; [lia|apply IH; exact Hd].
Qed.

(* the written cell holds nil or a cons, so it would be at or after m if it were on the chain *)
Lemma fc_set_below h m l v : l < m -> (hget h l = HNil \/ exists a0 d0, hget h l = HCons a0 d0) ->
  forall f i, fc f h m i -> fc f (hset h l v) m i.
Proof.
  intros Hl El. induction f as [|f IH]; intros i H; [exact I|]. simpl in *.
  rewrite hget_hset. destruct (Pos.eqb_spec i l) as [->|_].
  - destruct El as [El|(a0 & d0 & El)]; rewrite El in H; lia.
  - destruct (hget h i); try exact I; [exact H|].
    destruct H as [B Hd]. split; [exact B|apply IH; exact Hd].
Qed.

Lemma fc_graft h n0 w x y : n0 <= w < hnext h -> FC (hset h w (HCons x y)) n0 y ->
  forall f i, fc f h n0 i -> fc f (hset h w (HCons x y)) n0 i.
Proof.
  intros Bw Hy. induction f as [|f IH]; intros i H; [exact I|]. simpl in *.
  rewrite hget_hset. destruct (Pos.eqb_spec i w) as [->|_].
  - split; [exact Bw|apply Hy].
  - destruct (hget h i); try exact I; [exact H|].
    destruct H as [B Hd]. split; [exact B|apply IH; exact Hd].
Qed.

Lemma FC_alloc h m v : wfh h -> m <= hnext h ->
  match v with HCons _ d => FC h m d | _ => True end -> FC (fst (halloc h v)) m (hnext h).
Proof.
  intros W Hm Hv. apply FC_intro. rewrite hget_halloc_new, hnext_halloc.
  destruct v; try exact I; [lia|]. split; [lia|].
  intros f. apply (fc_frame h); [exact W|apply extends_alloc|apply Hv].
Qed.

(* What push and append do to the accumulator a, whose chain is fresh from n0 on: *)
(* after some allocations (hm), the cell w where the chain ends - its empty-list    *)
(* object or its last cons - is made a cons continued by a chain y of new cells.    *)
Lemma graft_fresh h hm n0 a w x y : wfh h -> extends h hm -> n0 <= hnext h ->
  FC h n0 a -> cdrs h a w -> (hget h w = HNil \/ exists a0 d0, hget h w = HCons a0 d0) ->
  FC hm (hnext h) y ->
  let h' := hset hm w (HCons x y) in
  wfh h' /\ hnext h <= hnext h' /\ same_below n0 h h' /\ FC h' n0 a.
Proof.
  intros W X Hn Ha Pw Ew Fy h'. pose proof (wfh_extends _ _ W X) as Wm.
  assert (Bw : n0 <= w < hnext h).
  { apply (FC_cdrs _ _ _ _ Pw) in Ha. destruct Ew as [Ew|(a0 & d0 & Ew)];
      [exact (FC_nil _ _ _ Ew Ha)|apply (FC_cons _ _ _ _ _ Ew Ha)]. }
  pose proof (ext_next _ _ X) as N.
  split; [apply wfh_set; [exact Wm|lia]|]. split; [exact N|].
  split; [intros c Hc; unfold h'; rewrite hget_hset_other by lia; apply (ext_below _ _ X); lia|].
  intros f. apply fc_graft; [lia| |apply (fc_frame h); [exact W|exact X|apply Ha]].
  intros g. apply (fc_weaken _ n0 (hnext h) Hn), fc_set_below; [lia| |apply Fy].
  rewrite (ext_below _ _ X w) by lia. exact Ew.
Qed.

Theorem push_fresh h n0 a v h' : wfh h -> n0 <= hnext h -> FC h n0 a -> h_push h a v = Ok h' ->
  wfh h' /\ hnext h <= hnext h' /\ same_below n0 h h' /\ FC h' n0 a.
Proof.
  intros W Hn Ha H. destruct (push_spec _ _ _ _ H) as (last & Pl & El & ->).
  apply graft_fresh; try assumption.
  - apply extends_alloc.
  - left. exact El.
  - apply FC_alloc; [exact W|lia|exact I].
Qed.

Lemma copied_chain h i h' r : copied h i h' r -> forall m, wfh h -> m <= hnext h -> FC h' m r.
Proof.
  induction 1 as [h i n E|h i v _ Hv|h i a d h1 a' h2 t _ Eh C IH]; intros m W Hm.
  - apply FC_intro. rewrite E. exact I.
  - apply FC_alloc; [exact W|exact Hm|]. destruct v; try exact I. contradiction.
  - pose proof (copy_head_extends _ _ _ _ Eh) as X1. pose proof (copied_extends _ _ _ _ C) as X2.
    pose proof (wfh_extends _ _ W X1) as W1. pose proof (wfh_extends _ _ W1 X2) as W2.
    pose proof (ext_next _ _ X1) as N1. pose proof (ext_next _ _ X2) as N2.
    apply FC_alloc; [exact W2|lia|]. apply IH; [exact W1|lia].
Qed.

Lemma deep_copy_chain h v h1 c : h_deep_copy h v = Ok (h1, c) -> wfh h ->
  wfh h1 /\ extends h h1 /\ FC h1 (hnext h) c.
Proof.
  intros H W. apply deep_copy_spec in H. pose proof (copied_extends _ _ _ _ H) as X.
  split; [exact (wfh_extends _ _ W X)|]. split; [exact X|].
  apply (copied_chain _ _ _ _ H); [exact W|lia].
Qed.

Theorem append_fresh h n0 a v h' : wfh h -> n0 <= hnext h -> FC h n0 a -> h_append h a v = Ok h' ->
  wfh h' /\ hnext h <= hnext h' /\ same_below n0 h h' /\ FC h' n0 a.
Proof.
  intros W Hn Ha H.
  destruct (append_spec _ _ _ _ H)
    as [_ _|h1 c x y Ea _ Ec E0|h1 c Ea _ Ec _|h1 c w x last x' Pw Ew _ Ec _].
  { split; [exact W|]. split; [lia|]. split; [apply same_below_refl|exact Ha]. }
  all: destruct (deep_copy_chain _ _ _ _ Ec W) as (W1 & X1 & F1).
  - apply (graft_fresh h h1); try assumption; [apply cdrs_here|left; exact Ea|].
    apply (FC_cons _ _ _ _ _ E0 F1).
  - apply (graft_fresh h); try assumption.
    + eapply extends_trans; [exact X1|apply extends_alloc].
    + apply cdrs_here.
    + left. exact Ea.
    + apply FC_alloc; [exact W1|exact (ext_next _ _ X1)|exact I].
  - apply (graft_fresh h h1); try assumption. right. eauto.
Qed.

Inductive bop := BPush (v : positive) | BAppend (v : positive).

Definition bstep (a : positive) (h : heap) (o : bop) : res heap :=
  match o with BPush v => h_push h a v | BAppend v => h_append h a v end.

Fixpoint bfold (a : positive) (h : heap) (ops : list bop) : res heap :=
  match ops with
  | [] => Ok h
  | o :: r => match bstep a h o with
              | Ok h1 => bfold a h1 r
              | Err e => Err e | Panic n => Panic n | Fuel => Fuel
              end
  end.

(* TulispObject::nil(), then push / append onto it *)
Definition build (h : heap) (ops : list bop) : res (heap * positive) :=
  match bfold (hnext h) (fst (halloc h HNil)) ops with
  | Ok h' => Ok (h', hnext h)
  | Err e => Err e | Panic n => Panic n | Fuel => Fuel
  end.

Lemma bfold_fresh a n0 : forall ops h h', wfh h -> n0 <= hnext h -> FC h n0 a ->
  bfold a h ops = Ok h' ->
  wfh h' /\ hnext h <= hnext h' /\ same_below n0 h h' /\ FC h' n0 a.
Proof.
  induction ops as [|o ops IH]; intros h h' W Hn Ha H; simpl in H.
  - injection H as <-. split; [exact W|]. split; [lia|]. split; [apply same_below_refl|exact Ha].
  - destruct (bstep a h o) as [h1|e|k|] eqn:E; try discriminate.
    assert (S1 : wfh h1 /\ hnext h <= hnext h1 /\ same_below n0 h h1 /\ FC h1 n0 a)
      by (destruct o; [eapply push_fresh|eapply append_fresh]; eassumption).
    destruct S1 as (W1 & N1 & B1 & F1).
    destruct (IH h1 h' W1 ltac:(lia) F1 H) as (W2 & N2 & B2 & F2).
    split; [exact W2|]. split; [lia|]. split; [eapply same_below_trans; eassumption|exact F2].
Qed.

Theorem build_fresh h ops h' a : wfh h -> build h ops = Ok (h', a) ->
  a = hnext h /\ wfh h' /\ same_below (hnext h) h h' /\ FC h' (hnext h) a /\ hnext h < hnext h'.
Proof.
  intros W H. unfold build in H.
  destruct (bfold (hnext h) (fst (halloc h HNil)) ops) as [hh|e|k|] eqn:E; try discriminate.
  injection H as <- <-.
  destruct (bfold_fresh (hnext h) (hnext h) ops (fst (halloc h HNil)) hh) as (W1 & N1 & B1 & F1);
    [apply wfh_alloc, W|rewrite hnext_halloc; lia|apply FC_alloc; [exact W|lia|exact I]|exact E|].
  rewrite hnext_halloc in N1.
  split; [reflexivity|]. split; [exact W1|]. split; [|split; [exact F1|lia]].
  eapply same_below_trans; [apply halloc_fresh; lia|exact B1].
Qed.

Corollary build_leaves_old_objects h ops h' a : wfh h -> build h ops = Ok (h', a) ->
  forall fuel x, below fuel h (hnext h) x = true -> abs fuel h' x = abs fuel h x.
Proof.
  intros W H fuel x Hx. destruct (build_fresh _ _ _ _ W H) as (_ & _ & S & _).
  eapply abs_same_below; eassumption.
Qed.

Corollary builds_independent h ops1 h1 a1 ops2 h2 a2 : wfh h ->
  build h ops1 = Ok (h1, a1) -> build h1 ops2 = Ok (h2, a2) ->
  a1 <> a2 /\ forall fuel x, below fuel h1 (hnext h1) x = true -> abs fuel h2 x = abs fuel h1 x.
Proof.
  intros W H1 H2. destruct (build_fresh _ _ _ _ W H1) as (E1 & W1 & _ & _ & L1).
  split; [destruct (build_fresh _ _ _ _ W1 H2) as (E2 & _); lia|].
  exact (build_leaves_old_objects _ _ _ _ W1 H2).
Qed.
